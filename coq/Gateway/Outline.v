(* Compact block relay (gateway/outline.go): a block outline keeps every transaction's hash and optionally
   its body; Complete fills the missing bodies from a candidate pool keyed by hash. *)
From Coq Require Import List Bool.
Import ListNotations.

Section Outline.
Variable T : Type.                 (* a transaction body (v1 or v2) *)
Variable K : Type.                 (* its full hash *)
Variable K_eqb : K -> K -> bool.
Variable K_eqb_ok : forall a b, K_eqb a b = true <-> a = b.
Variable h : T -> K.               (* MerkleLeafHash *)

Record otxn := { o_hash : K; o_txn : option T }.
Definition memb (x : K) (l : list K) : bool := existsb (K_eqb x) l.

(* OutlineBlock(b, txns, v2txns): the transactions to leave out are given by their hashes, which is how
   RemoveTransactions looks them up *)
Definition outline (b : list T) (omit : list K) : list otxn :=
  map (fun t => {| o_hash := h t; o_txn := if memb (h t) omit then None else Some t |}) b.
(* the pool is a Go map keyed by hash: a later entry replaces an earlier one *)
Fixpoint lookup (pool : list T) (x : K) : option T :=
  match pool with
  | [] => None
  | t :: r => match lookup r x with Some t' => Some t' | None => if K_eqb (h t) x then Some t else None end
  end.
Definition complete (o : list otxn) (pool : list T) : list otxn :=
  map (fun e => match o_txn e with Some _ => e | None => {| o_hash := o_hash e; o_txn := lookup pool (o_hash e) |} end) o.
Definition block_of (o : list otxn) : list T := flat_map (fun e => match o_txn e with Some t => [t] | None => [] end) o.
Definition missing (o : list otxn) : list K := flat_map (fun e => match o_txn e with Some _ => [] | None => [o_hash e] end) o.
Definition hashes (o : list otxn) : list K := map o_hash o.

Definition Collision : Prop := exists a b : T, a <> b /\ h a = h b.

(* the outline has the block's leaf hashes, whatever is omitted: same commitment, same block ID *)
Theorem outline_hashes b omit : hashes (outline b omit) = map h b.
Proof. unfold hashes, outline. rewrite map_map. reflexivity. Qed.
Theorem complete_hashes o pool : hashes (complete o pool) = hashes o.
Proof. unfold hashes, complete. rewrite map_map. apply map_ext. intros e. destruct (o_txn e); reflexivity. Qed.

Lemma lookup_hash pool x t : lookup pool x = Some t -> h t = x /\ In t pool.
Proof.
  induction pool as [|a r IH]; cbn [lookup]; [discriminate|].
  destruct (lookup r x) as [t'|] eqn:E.
  - intros [= <-]. destruct (IH eq_refl). split; auto. now right.
  - destruct (K_eqb (h a) x) eqn:Q; [|discriminate]. intros [= <-]. apply K_eqb_ok in Q. split; auto. now left.
Qed.
Lemma lookup_none pool x : lookup pool x = None -> ~ In x (map h pool).
Proof.
  induction pool as [|a r IH]; cbn [lookup map]; [tauto|].
  destruct (lookup r x) eqn:E; [discriminate|].
  destruct (K_eqb (h a) x) eqn:Q; [discriminate|]. intros _ [A|B].
  - apply K_eqb_ok in A. congruence.
  - now apply IH.
Qed.
Lemma lookup_some pool x : In x (map h pool) -> exists t, lookup pool x = Some t.
Proof.
  intros I. destruct (lookup pool x) eqn:E; [eauto|]. apply lookup_none in E. tauto.
Qed.

Lemma memb_In x l : memb x l = true <-> In x l.
Proof.
  unfold memb. rewrite existsb_exists. split.
  - intros (y & Iy & Ey). apply K_eqb_ok in Ey. subst. exact Iy.
  - intros I. exists x. split; [exact I | apply K_eqb_ok; reflexivity].
Qed.
Lemma lookup_memb pool x : memb x (map h pool) = match lookup pool x with Some _ => true | None => false end.
Proof.
  destruct (lookup pool x) eqn:L.
  - apply memb_In. destruct (lookup_hash _ _ _ L) as [<- I]. now apply in_map.
  - apply lookup_none in L. destruct (memb x (map h pool)) eqn:Q; [apply memb_In in Q; tauto | reflexivity].
Qed.

Theorem missing_exact b omit pool :
  missing (complete (outline b omit) pool) =
  filter (fun x => memb x omit && negb (memb x (map h pool))) (map h b).
Proof.
  induction b as [|t b IH]; [reflexivity|].
  cbn [outline map complete missing flat_map filter] in *. cbn [o_txn o_hash]. rewrite lookup_memb.
  destruct (memb (h t) omit); cbn [o_txn o_hash andb app]; [|exact IH].
  destruct (lookup pool (h t)); cbn [negb app]; [exact IH | f_equal; exact IH].
Qed.

Theorem complete_restores (T_eq_dec : forall a b : T, {a = b} + {a <> b}) b omit pool :
  (forall t, In t b -> memb (h t) omit = true -> In t pool) ->
  (block_of (complete (outline b omit) pool) = b /\ missing (complete (outline b omit) pool) = []) \/ Collision.
Proof.
  induction b as [|t b IH]; intros Hp; [left; split; reflexivity|].
  destruct IH as [[IH1 IH2]|C]; [intros u Iu; apply Hp; now right | | right; exact C].
  unfold block_of, missing, complete, outline in *. cbn [map flat_map o_txn o_hash]. rewrite IH1, IH2.
  destruct (memb (h t) omit) eqn:M; cbn [o_txn o_hash]; [|left; split; reflexivity].
  destruct (lookup_some pool (h t)) as [t' L]; [apply in_map; apply Hp; [now left | exact M]|].
  rewrite L. destruct (lookup_hash _ _ _ L) as [Hh _].
  destruct (T_eq_dec t' t) as [->|Ne].
  - left. split; reflexivity.
  - right. exists t', t. split; assumption.
Qed.
End Outline.
