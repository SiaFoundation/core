From Coq Require Import ZArith List Bool Lia.
From Sia Require Import Prim.Result Pow.Model.
Import ListNotations.
Open Scope Z_scope.

Lemma M256_pos : 0 < M256. Proof. reflexivity. Qed.

(* Taking a branch of the conditional at the head of a large body, without rewriting inside it. *)
Lemma if_then {A} (c : bool) (a b : A) : c = true -> (if c then a else b) = a.
Proof. intros ->. reflexivity. Qed.
Lemma if_else {A} (c : bool) (a b : A) : c = false -> (if c then a else b) = b.
Proof. intros ->. reflexivity. Qed.

Lemma wadd_ok a b r : wadd a b = Ok r -> r = a + b /\ a + b < M256.
Proof. unfold wadd. destruct (Z.leb_spec M256 (a + b)); intros [= <-]. split; [reflexivity|assumption]. Qed.
Lemma wsub_ok a b r : wsub a b = Ok r -> r = a - b /\ b <= a.
Proof. unfold wsub. destruct (Z.ltb_spec a b); intros [= <-]. split; [reflexivity|assumption]. Qed.
Lemma wdiv64_ok a v r : wdiv64 a v = Ok r -> r = a / v /\ v <> 0.
Proof. unfold wdiv64. destruct (Z.eqb_spec v 0); intros [= <-]. split; [reflexivity|assumption]. Qed.
Lemma inv_ok n r : inv_target n = Ok r -> r = maxT / n /\ n <> 0.
Proof. unfold inv_target. destruct (Z.eqb_spec n 0); intros [= <-]. split; [reflexivity|assumption]. Qed.
Lemma mul_frac_ok x n d r : mul_target_frac x n d = Ok r -> r = int_to_target (x * n / d) /\ d <> 0.
Proof. unfold mul_target_frac. destruct (Z.eqb_spec d 0); intros [= <-]. split; [reflexivity|assumption]. Qed.

Theorem finalcut_clamp net s ts d' : 0 <= p_difficulty s ->
  adjust_difficulty_finalcut net s ts = Ok d' ->
  Z.abs (d' - p_difficulty s) <= Z.max (p_difficulty s / 250) 1 /\ 1 <= d'.
Proof.
  intros _. unfold adjust_difficulty_finalcut. intros Hadj.
  apply bind_ok in Hadj as (a & _ & Hadj). apply bind_ok in Hadj as (b & _ & Hadj).
  apply bind_ok in Hadj as (c & _ & Hadj). apply bind_ok in Hadj as (nd & _ & Hadj).
  apply bind_ok in Hadj as (q & Hq & Hadj). apply wdiv64_ok in Hq as [-> _].
  apply bind_ok in Hadj as (up & Hup & Hadj). apply wadd_ok in Hup as [-> _].
  apply bind_ok in Hadj as (dn & Hdn & Hadj). apply wsub_ok in Hdn as [-> Hle].
  injection Hadj as <-. revert Hle. clear.
  generalize (p_difficulty s) (Z.max (p_difficulty s / 250) 1) (Z.le_max_r (p_difficulty s / 250) 1). lia.
Qed.

Theorem v2_clamp net s ts d' : 0 <= p_difficulty s ->
  adjust_difficulty_v2 net s ts = Ok d' ->
  p_difficulty s - p_difficulty s / 250 <= d' <= p_difficulty s + p_difficulty s / 250.
Proof.
  intros Hd. unfold adjust_difficulty_v2. intros Hadj.
  apply bind_ok in Hadj as (eh & _ & Hadj). apply bind_ok in Hadj as (nd & _ & Hadj).
  apply bind_ok in Hadj as (adj & Hadj' & Hadj). apply wdiv64_ok in Hadj' as [-> _].
  apply bind_ok in Hadj as (lo & Hlo & Hadj). apply wsub_ok in Hlo as [-> _].
  revert Hadj. generalize (p_difficulty s) (p_difficulty s / 250) (Z.div_pos (p_difficulty s) 250 Hd eq_refl).
  intros D A HA Hadj.
  destruct (Z.ltb_spec nd (D - A)).
  - injection Hadj as <-. lia.
  - apply bind_ok in Hadj as (hi & Hhi & Hadj). apply wadd_ok in Hhi as [-> _].
    destruct (Z.ltb_spec (D + A) nd); injection Hadj as <-; lia.
Qed.

Theorem v2_never_zero net s ts d' : 1 <= p_difficulty s -> adjust_difficulty_v2 net s ts = Ok d' -> 1 <= d'.
Proof.
  intros Hd Hadj. apply v2_clamp in Hadj; [|lia].
  (* D - D/250 >= 1 because D/250 <= D/2 < D *)
  pose proof (Z.mul_div_le (p_difficulty s) 250 eq_refl). lia.
Qed.

Theorem total_work_increases net s tw d : n_v2_allow net <= child_height s -> 1 <= p_difficulty s ->
  update_total_work net s = Ok (tw, d) -> p_total_work s < tw /\ d = maxT / tw.
Proof.
  intros Hh Hd. unfold update_total_work. rewrite (proj2 (Z.ltb_ge _ _) Hh).
  intros Hadj. apply bind_ok in Hadj as (w & Hw & Hadj). apply wadd_ok in Hw as [-> _].
  apply bind_ok in Hadj as (i & Hi & Hadj). apply inv_ok in Hi as [-> _].
  injection Hadj as <- <-. split; [lia|reflexivity].
Qed.

Theorem inverse_relation net s ts tt d t : adjust_difficulty net s ts tt = Ok (d, t) ->
  (child_height s < n_v2_allow net -> d = maxT / t) /\ (n_v2_allow net <= child_height s -> t = maxT / d).
Proof.
  unfold adjust_difficulty. destruct (Z.ltb_spec (child_height s) (n_v2_allow net)).
  - intros Hadj. apply bind_ok in Hadj as (t0 & _ & Hadj). apply bind_ok in Hadj as (i & Hi & Hadj).
    apply inv_ok in Hi as [-> _]. injection Hadj as <- <-. split; [reflexivity|lia].
  - destruct (Z.ltb_spec (child_height s) (n_v2_final net)); intros Hadj;
      apply bind_ok in Hadj as (d0 & _ & Hadj); apply bind_ok in Hadj as (i & Hi & Hadj);
      apply inv_ok in Hi as [-> _]; injection Hadj as <- <-; (split; [lia|reflexivity]).
Qed.

Theorem heavier_asymmetric s t : 0 <= p_difficulty s -> 0 <= p_difficulty t ->
  sufficiently_heavier s t = Ok true -> sufficiently_heavier t s = Ok true -> False.
Proof.
  intros Hs Ht. unfold sufficiently_heavier. intros H1 H2.
  apply bind_ok in H1 as (d1 & Hd1 & H1), H2 as (d2 & Hd2 & H2). apply wdiv64_ok in Hd1 as [-> _], Hd2 as [-> _].
  apply bind_ok in H1 as (x1 & Hx1 & H1), H2 as (x2 & Hx2 & H2). apply wadd_ok in Hx1 as [-> _], Hx2 as [-> _].
  injection H1 as A. injection H2 as B.
  apply Z.ltb_lt in A, B.
  pose proof (Z.div_pos (p_difficulty t) 5 Ht eq_refl).
  pose proof (Z.div_pos (p_difficulty s) 5 Hs eq_refl). lia.
Qed.

Lemma itt_min x : int_to_target x = Z.min x maxT.
Proof. unfold int_to_target. change (2 ^ 256) with (maxT + 1). destruct (Z.leb_spec (maxT + 1) x); lia. Qed.

Lemma itt_mono a b : a <= b -> int_to_target a <= int_to_target b.
Proof. intros H. rewrite !itt_min. apply Z.min_le_compat_r, H. Qed.

Lemma cmp_work_neg a b : (cmp_work a b <? 0) = (b <? a).
Proof. unfold cmp_work, Z.ltb. destruct (b ?= a); reflexivity. Qed.
Lemma cmp_work_pos a b : (0 <? cmp_work a b) = (a <? b).
Proof. unfold cmp_work, Z.ltb. rewrite (Z.compare_antisym b a). destruct (b ?= a); reflexivity. Qed.

(* The Oak era of adjustTarget with what no theorem depends on left abstract: [q] is the Oak time in seconds (at least
   1), [x] the target block time before it is clamped to [interval/3, 3*interval]; [nt] is the new target before it is
   clamped. [nt] is a [let] and not a third witness: as a witness it would repeat the large terms [q] and [x], and such
   a term is slow to check. *)
Lemma adjust_target_oak net s ts tt : n_oak_height net < child_height s ->
  exists q x, 1 <= q /\
    let I := Z.quot (n_interval net) SEC in
    let tbt := if x <? Z.quot I 3 then Z.quot I 3 else if w64 (I * 3) <? x then w64 (I * 3) else x in
    let eh := maxT / p_oak_target s / q * (if tbt =? 0 then 1 else tbt) in
    let nt := int_to_target (maxT / (if eh =? 0 then 1 else eh)) in
    let lo := int_to_target (p_child_target s * 1000 / 1004) in
    let hi := int_to_target (p_child_target s * 1004 / 1000) in
    adjust_target net s ts tt =
      if p_oak_target s =? 0 then Panic PDivZero
      else if child_height s =? n_asic_height net then Ok nt
      else Ok (if cmp_work nt hi <? 0 then hi else if 0 <? cmp_work nt lo then lo else nt).
Proof.
  intros Hh. do 2 eexists. split; [|exact (if_else _ _ _ (proj2 (Z.leb_gt _ _) Hh))].
  destruct (Z.leb_spec (Z.quot (p_oak_time s) SEC) 0); [reflexivity|apply Z.lt_pred_le; assumption].
Qed.

Lemma frac_1004 T : 0 <= T -> T * 1000 / 1004 <= T <= T * 1004 / 1000.
Proof. intros H. split; [apply Z.div_le_upper_bound | apply Z.div_le_lower_bound]; lia. Qed.

Theorem oak_clamp net s ts tt r : 0 <= p_child_target s ->
  n_oak_height net < child_height s -> child_height s <> n_asic_height net ->
  adjust_target net s ts tt = Ok r ->
  int_to_target (p_child_target s * 1000 / 1004) <= r <= int_to_target (p_child_target s * 1004 / 1000).
Proof.
  intros Ht Hh Hn E.
  destruct (adjust_target_oak net s ts tt Hh) as (q & x & _ & E'). cbv zeta in E'.
  set (nt := int_to_target (maxT / _)) in E'. clearbody nt.
  rewrite E, (proj2 (Z.eqb_neq _ _) Hn), cmp_work_neg, cmp_work_pos in E'.
  destruct (p_oak_target s =? 0); [discriminate|]. injection E' as ->. clear E.
  assert (Hm : int_to_target (p_child_target s * 1000 / 1004) <= int_to_target (p_child_target s * 1004 / 1000))
    by (apply itt_mono; pose proof (frac_1004 _ Ht); lia).
  revert Hm. generalize (int_to_target (p_child_target s * 1000 / 1004)) (int_to_target (p_child_target s * 1004 / 1000)).
  intros lo hi Hm.
  destruct (Z.ltb_spec hi nt); [|destruct (Z.ltb_spec nt lo)]; lia.
Qed.

(* for a representable target (at most maxT) the bounds of [oak_clamp] do not saturate: the next target is between
   t*1000/1004 and t*1004/1000, and never above the maximum *)
Theorem oak_clamp_exact net s ts tt r : 0 <= p_child_target s <= maxT ->
  n_oak_height net < child_height s -> child_height s <> n_asic_height net ->
  adjust_target net s ts tt = Ok r ->
  p_child_target s * 1000 / 1004 <= r <= p_child_target s * 1004 / 1000 /\ r <= maxT.
Proof.
  intros [Ht Hm] Hh Hn E. destruct (oak_clamp net s ts tt r Ht Hh Hn E) as [L U].
  rewrite itt_min in L, U. pose proof (frac_1004 _ Ht). lia.
Qed.

(* before the Oak fork: unchanged except every 500 blocks *)
Lemma adjust_target_preoak_off net s ts tt : child_height s <= n_oak_height net -> child_height s mod 500 <> 0 ->
  adjust_target net s ts tt = Ok (p_child_target s).
Proof.
  intros Hh Hm. apply Z.leb_le in Hh. apply Z.eqb_neq in Hm.
  rewrite (if_then _ _ _ Hh : adjust_target net s ts tt = _), Hm. reflexivity.
Qed.

Theorem preoak_unchanged net s ts tt r : child_height s <= n_oak_height net -> child_height s mod 500 <> 0 ->
  adjust_target net s ts tt = Ok r -> r = p_child_target s.
Proof. intros Hh Hm. rewrite (adjust_target_preoak_off net s ts tt Hh Hm). congruence. Qed.

(* every 500 blocks: multiplied by the ratio of elapsed to expected time, clamped to [0.4, 2.5], provided the expected time
   is positive *)
Lemma adjust_target_preoak net s ts tt : child_height s <= n_oak_height net -> child_height s mod 500 = 0 ->
  0 < w64 (Z.quot (n_interval net) SEC * w64 (if 1000 >? child_height s then child_height s else 1000)) ->
  exists el ex, adjust_target net s ts tt = mul_target_frac (p_child_target s) el ex /\
    0 < ex /\ 0 < el /\ 2 * ex <= 5 * el /\ 2 * el <= 5 * ex.
Proof.
  intros Hh Hm. apply Z.leb_le in Hh.
  rewrite (if_then _ _ _ Hh : adjust_target net s ts tt = _), Hm. cbn [Z.eqb negb].
  generalize (Z.quot (tsub ts tt) SEC)
    (w64 (Z.quot (n_interval net) SEC * w64 (if 1000 >? child_height s then child_height s else 1000))).
  intros elapsed expected Hpos. rewrite (proj2 (Z.ltb_lt _ _) Hpos).
  (* in each case the pair is read off the equation, and its bounds follow from the tests that led there *)
  destruct (Z.eqb_spec elapsed 0) as [E0|E0]; [do 2 eexists; split; [reflexivity | lia]|].
  destruct (Z.ltb_spec 0 elapsed).
  - destruct (Z.ltb_spec (5 * elapsed) (2 * expected)); [do 2 eexists; split; [reflexivity | lia]|].
    destruct (Z.ltb_spec (5 * expected) (2 * elapsed)); do 2 eexists; (split; [reflexivity | lia]).
  - rewrite (proj2 (Z.ltb_ge (2 * expected) (5 * elapsed))) by lia.
    rewrite (proj2 (Z.ltb_lt (2 * elapsed) (5 * expected))) by lia. do 2 eexists; split; [reflexivity | lia].
Qed.

Theorem preoak_clamp net s ts tt r : 0 <= p_child_target s ->
  child_height s <= n_oak_height net -> child_height s mod 500 = 0 ->
  adjust_target net s ts tt = Ok r ->
  exists el ex, 0 < ex /\ 0 < el /\ 2 * ex <= 5 * el /\ 2 * el <= 5 * ex /\ r = int_to_target (p_child_target s * el / ex)
  \/ (* degenerate: zero or negative expected time (a BlockInterval below one second, child height 0, or an interval
        so long that the product wraps) *)
     w64 (Z.quot (n_interval net) SEC * w64 (if 1000 >? child_height s then child_height s else 1000)) <= 0.
Proof.
  intros _ Hh Hm E.
  destruct (Z.leb_spec (w64 (Z.quot (n_interval net) SEC * w64 (if 1000 >? child_height s then child_height s else 1000))) 0)
    as [Hle|Hpos]; [exists 0, 0; right; exact Hle|].
  destruct (adjust_target_preoak net s ts tt Hh Hm Hpos) as (el & ex & E' & A & B & C & D).
  rewrite E' in E. apply mul_frac_ok in E. exists el, ex. left. tauto.
Qed.

Theorem validate_header_iff net s po ts nonce id m t :
  median_timestamp s = Ok m -> pow_target net s = Ok t -> nonce_factor net s <> 0 ->
  (validate_header net s po ts nonce id = Ok 0 <->
   po = true /\ m <= ts /\ nonce mod nonce_factor net s = 0 /\ id <= t).
Proof.
  intros Hm Ht Hn. unfold validate_header. rewrite Hm, Ht. cbn [bind].
  destruct po; cbn [negb]; [|split; [discriminate|intros (A & _); discriminate]].
  destruct (Z.ltb_spec ts m); [split; [discriminate|intros (_ & A & _); lia]|].
  destruct (Z.eqb_spec (nonce_factor net s) 0); [contradiction|].
  destruct (Z.eqb_spec (nonce mod nonce_factor net s) 0); cbn [negb]; [|split; [discriminate|intros (_ & _ & A & _); contradiction]].
  rewrite cmp_work_neg. destruct (Z.ltb_spec t id); [split; [discriminate|intros (_ & _ & _ & A); lia]|].
  split; [intros _; auto | reflexivity].
Qed.
