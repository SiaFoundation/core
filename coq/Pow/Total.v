(* ApplyHeader never fails, one step at a time, under explicit physical guards on the state:
   the v2 eras (difficulty arithmetic), then the target eras. *)
From Coq Require Import ZArith List Bool Lia.
From Sia Require Import Prim.Result Pow.Model Pow.Proofs.
Import ListNotations.
Open Scope Z_scope.

Lemma wadd_total a b : a + b < M256 -> wadd a b = Ok (a + b).
Proof. intros L. exact (if_else _ _ _ (proj2 (Z.leb_gt _ _) L)). Qed.
Lemma wsub_total a b : b <= a -> wsub a b = Ok (a - b).
Proof. intros L. exact (if_else _ _ _ (proj2 (Z.ltb_ge _ _) L)). Qed.
Lemma wmul64_total a v : a * v < M256 -> wmul64 a v = Ok (a * v).
Proof. intros L. exact (if_else _ _ _ (proj2 (Z.leb_gt _ _) L)). Qed.
Lemma wdiv64_total a v : v <> 0 -> wdiv64 a v = Ok (a / v).
Proof. intros L. exact (if_else _ _ _ (proj2 (Z.eqb_neq _ _) L)). Qed.
Lemma inv_total n : n <> 0 -> inv_target n = Ok (maxT / n).
Proof. intros L. exact (if_else _ _ _ (proj2 (Z.eqb_neq _ _) L)). Qed.
Lemma mul_frac_total x n d : d <> 0 -> mul_target_frac x n d = Ok (int_to_target (x * n / d)).
Proof. intros L. exact (if_else _ _ _ (proj2 (Z.eqb_neq _ _) L)). Qed.

Lemma w64_range x : - 2 ^ 63 <= w64 x < 2 ^ 63.
Proof. unfold w64, U64. pose proof (Z.mod_pos_bound (x + 2 ^ 63) (2 ^ 64) eq_refl). lia. Qed.
Lemma w64_id x : - 2 ^ 63 <= x < 2 ^ 63 -> w64 x = x.
Proof. intros H. unfold w64, U64. rewrite Z.mod_small; lia. Qed.
Lemma u64_range x : 0 <= u64 x < 2 ^ 64.
Proof. apply Z.mod_pos_bound. reflexivity. Qed.
Lemma u64_id x : 0 <= x < 2 ^ 64 -> u64 x = x.
Proof. apply Z.mod_small. Qed.

Lemma div_le_self a b : 0 <= a -> 1 <= b -> 0 <= a / b <= a.
Proof.
  intros Ha Hb. split; [apply Z.div_pos; lia|].
  rewrite <- (Z.div_1_r a) at 2. apply Z.div_le_compat_l; lia.
Qed.

(* the physical guard of the v2 eras: difficulty at least 1, the three work quantities far below 2^256, the block
   interval between 3 ns and 2^44 ns (4.8 hours), OakTime an int64 *)
Record guard_v2 (net : network) (s : pstate) : Prop := {
  g_diff : 1 <= p_difficulty s < 2 ^ 240;
  g_total : 0 <= p_total_work s < 2 ^ 240;
  g_oakw : 0 <= p_oak_work s < 2 ^ 200;
  g_oakt : - 2 ^ 63 <= p_oak_time s < 2 ^ 63;
  g_int : 3 <= n_interval net < 2 ^ 44;
  g_asic : - 2 ^ 63 <= n_asic_oaktime net < 2 ^ 63      (* a time.Duration *)
}.

Lemma M256_val : M256 = 2 ^ 256. Proof. reflexivity. Qed.

(* The bounds are variables and their closed comparison is evaluated: a certificate of lia over 240-bit literals is slow
   to check. *)
Lemma fits A a : a < A -> (A <=? M256) = true -> a < M256.
Proof. intros Ha H. apply Z.leb_le in H. lia. Qed.
Lemma add_fits A B a b : a < A -> b < B -> (A + B <=? M256) = true -> a + b < M256.
Proof. intros Ha Hb. apply fits. lia. Qed.

Theorem update_total_work_total net s : n_v2_allow net <= child_height s -> guard_v2 net s ->
  exists tw d, update_total_work net s = Ok (tw, d) /\ tw = p_total_work s + p_difficulty s.
Proof.
  intros Hh [Gd Gt _ _ _ _]. unfold update_total_work. rewrite (proj2 (Z.ltb_ge _ _) Hh).
  rewrite wadd_total by (apply (add_fits (2 ^ 240) (2 ^ 240)); [apply Gt | apply Gd | reflexivity]). cbn [bind].
  rewrite inv_total by lia. cbn [bind]. eauto.
Qed.

Theorem update_oak_work_total net s : n_v2_allow net <= child_height s -> guard_v2 net s ->
  exists w t, update_oak_work net s = Ok (w, t) /\ w = p_oak_work s - p_oak_work s / 200 + p_difficulty s.
Proof.
  intros Hh [Gd _ Go _ _ _]. unfold update_oak_work. rewrite (proj2 (Z.ltb_ge _ _) Hh).
  pose proof (div_le_self (p_oak_work s) 200 (proj1 Go) ltac:(lia)) as Hq.
  rewrite wdiv64_total by discriminate. cbn [bind]. rewrite wsub_total by apply Hq. cbn [bind].
  rewrite wadd_total by (apply (add_fits (2 ^ 200) (2 ^ 240)); [apply Z.le_lt_trans with (p_oak_work s); [lia | apply Go] | apply Gd | reflexivity]).
  cbn [bind]. rewrite inv_total by lia. cbn [bind]. eauto.
Qed.

(* the clamp of the target block time in adjustTarget and adjustDifficultyV2 *)
Lemma clamp_interval I x : 0 <= I -> I * 3 < 2 ^ 63 ->
  I / 3 <= (if x <? Z.quot I 3 then Z.quot I 3 else if w64 (I * 3) <? x then w64 (I * 3) else x) <= I * 3.
Proof.
  intros HI H3. rewrite (w64_id (I * 3)), Z.quot_div_nonneg by lia.
  assert (I / 3 <= I) by (apply div_le_self; lia).
  destruct (Z.ltb_spec x (I / 3)); [|destruct (Z.ltb_spec (I * 3) x)]; lia.
Qed.

Lemma clamp3 I x : 3 <= I < 2 ^ 44 ->
  let t := if x <? Z.quot I 3 then Z.quot I 3 else if w64 (I * 3) <? x then w64 (I * 3) else x in
  1 <= t <= 3 * I.
Proof.
  intros HI t. pose proof (clamp_interval I x ltac:(lia) ltac:(lia)) as Ht. fold t in Ht.
  assert (1 <= I / 3) by (apply Z.div_le_lower_bound; lia). lia.
Qed.

Lemma step_fits D A : A <= D < 2 ^ 240 -> D + A < M256.
Proof.
  intros [HA HD]. apply (add_fits (2 ^ 240) (2 ^ 240)); [exact HD | apply Z.le_lt_trans with D; assumption | reflexivity].
Qed.

Theorem adjust_v2_total net s ts : guard_v2 net s -> exists d, adjust_difficulty_v2 net s ts = Ok d /\ 1 <= d.
Proof.
  intros [Gd _ Go Gt Gi _].
  enough (exists d, adjust_difficulty_v2 net s ts = Ok d) as [d E]
    by (exists d; split; [exact E | exact (v2_never_zero _ _ _ _ (proj1 Gd) E)]).
  unfold adjust_difficulty_v2.
  set (tbt := if _ <? Z.quot (n_interval net) 3 then _ else _).
  assert (Ht : 1 <= tbt <= 3 * n_interval net) by (apply clamp3; exact Gi).
  set (ot := if p_oak_time s <=? SEC then SEC else p_oak_time s).
  assert (Ho : SEC <= ot < 2 ^ 63) by (clear - Gt; unfold ot; destruct (Z.leb_spec (p_oak_time s) SEC); unfold SEC in *; lia).
  assert (Q1 : 1 <= Z.quot ot SEC < 2 ^ 63)
    by (clear - Ho; split; [apply Z.quot_le_lower_bound | apply Z.quot_lt_upper_bound]; unfold SEC in *; lia).
  assert (Q2 : 0 <= Z.quot tbt SEC < 2 ^ 46)
    by (clear - Ht Gi; split; [apply Z.quot_pos | apply Z.quot_lt_upper_bound]; unfold SEC; lia).
  clearbody tbt ot. rewrite (u64_id (Z.quot ot SEC)), (u64_id (Z.quot tbt SEC)) by lia.
  pose proof (div_le_self (p_oak_work s) (Z.quot ot SEC) (proj1 Go) (proj1 Q1)) as Hw.
  pose proof (div_le_self (p_difficulty s) 250 ltac:(lia) ltac:(lia)) as Hq.
  rewrite wdiv64_total by lia. cbn [bind].
  rewrite wmul64_total; cbn [bind].
  2: { apply (fits (2 ^ 200 * 2 ^ 46)); [|reflexivity].
       apply Z.mul_lt_mono_nonneg; [apply Hw | apply Z.le_lt_trans with (p_oak_work s); [apply Hw | apply Go] | apply Q2 | apply Q2]. }
  rewrite wdiv64_total by discriminate. cbn [bind]. rewrite wsub_total by apply Hq. cbn [bind].
  destruct (_ <? _); [eexists; reflexivity|].
  rewrite wadd_total by (apply step_fits; split; [apply Hq | apply Gd]). cbn [bind]. destruct (_ <? _); eexists; reflexivity.
Qed.

Theorem adjust_finalcut_total net s ts : guard_v2 net s -> exists d, adjust_difficulty_finalcut net s ts = Ok d /\ 1 <= d.
Proof.
  intros [Gd _ Go Gt Gi _].
  enough (exists d, adjust_difficulty_finalcut net s ts = Ok d) as [d E]
    by (exists d; split; [exact E | apply (finalcut_clamp net s ts d); [lia | exact E]]).
  unfold adjust_difficulty_finalcut.
  rewrite (w64_id (n_interval net * 3)), (Z.quot_div_nonneg (n_interval net) 3) by lia.
  set (ti := Z.max (Z.min _ _) _).
  assert (Ht : 1 <= ti < 2 ^ 46).
  { assert (1 <= n_interval net / 3 <= n_interval net) by (split; [apply Z.div_le_lower_bound | apply div_le_self]; lia).
    unfold ti. lia. }
  clearbody ti. rewrite (u64_id ti), (u64_id (Z.max (p_oak_time s) 1)) by lia.
  assert (Ha : p_oak_work s * ti < 2 ^ 200 * 2 ^ 46) by (apply Z.mul_lt_mono_nonneg; try apply Go; lia).
  pose proof (u64_range (Z.quot (p_oak_time s) 2)) as [_ Hb]. rewrite <- (Z.mul_1_l (u64 _)) in Hb.
  assert (HA : Z.max (p_difficulty s / 250) 1 <= p_difficulty s)
    by (pose proof (div_le_self (p_difficulty s) 250 ltac:(lia) ltac:(lia)); lia).
  rewrite 2 wmul64_total by (eapply fits; [eassumption | reflexivity]). cbn [bind].
  rewrite wadd_total by (apply (add_fits _ _ _ _ Ha Hb); reflexivity). cbn [bind].
  rewrite 2 wdiv64_total by lia. cbn [bind].
  rewrite wadd_total by (apply step_fits; split; [exact HA | apply Gd]). cbn [bind].
  rewrite wsub_total by exact HA. eexists; reflexivity.
Qed.

Lemma update_oak_time_range net s ts pt : - 2 ^ 63 <= n_asic_oaktime net < 2 ^ 63 ->
  - 2 ^ 63 <= update_oak_time net s ts pt < 2 ^ 63.
Proof. intros Ga. unfold update_oak_time. destruct (_ =? _); [exact Ga | apply w64_range]. Qed.

Lemma apply_header_next net s ts tt tw dt ow : update_total_work net s = Ok tw ->
  adjust_difficulty net s ts tt = Ok dt -> update_oak_work net s = Ok ow ->
  exists s', apply_header net s false ts tt = Ok s' /\
    p_difficulty s' = fst dt /\ p_total_work s' = fst tw /\ p_oak_work s' = fst ow /\
    p_oak_time s' = update_oak_time net s ts (hd 0 (p_prev s)).
Proof.
  intros E1 E2 E3. unfold apply_header. rewrite E1, E2, E3. cbn [bind p_height].
  destruct (_ <=? _); eexists; (split; [reflexivity|]); cbn; auto.
Qed.

(* ApplyHeader on a non-genesis header in the v2 eras never fails under [guard_v2]. Of the guard, the new state is shown
   to keep the lower bounds (difficulty >= 1, Oak work >= 0, total work grown by the old difficulty) and the int64 range
   of OakTime; the upper bounds on difficulty and work are not shown to be kept. *)
Theorem apply_header_total_v2 net s ts tt : n_v2_allow net <= child_height s -> guard_v2 net s ->
  exists s', apply_header net s false ts tt = Ok s' /\
    1 <= p_difficulty s' /\ p_total_work s' = p_total_work s + p_difficulty s /\ 0 <= p_oak_work s' /\
    - 2 ^ 63 <= p_oak_time s' < 2 ^ 63.
Proof.
  intros Hh G.
  destruct (update_total_work_total net s Hh G) as (tw & dp & E1 & Etw).
  assert (AD : exists d t, adjust_difficulty net s ts tt = Ok (d, t) /\ 1 <= d).
  { unfold adjust_difficulty. rewrite (proj2 (Z.ltb_ge _ _) Hh).
    destruct (child_height s <? n_v2_final net);
      [destruct (adjust_v2_total net s ts G) as (d & E & D1) | destruct (adjust_finalcut_total net s ts G) as (d & E & D1)];
      rewrite E; cbn [bind]; rewrite inv_total by lia; cbn [bind]; eauto. }
  destruct AD as (d & t & E2 & D1).
  destruct (update_oak_work_total net s Hh G) as (w & t' & E3 & Ew).
  destruct (apply_header_next net s ts tt _ _ _ E1 E2 E3) as (s' & E & Hd & Ht & Hw & Ho). exists s'.
  rewrite Hd, Ht, Hw, Ho. cbn [fst]. subst tw w.
  destruct G as [Gd _ Go _ _ Ga]. pose proof (div_le_self (p_oak_work s) 200 (proj1 Go) ltac:(lia)).
  split; [exact E|]. split; [exact D1|]. split; [reflexivity|]. split; [lia | apply update_oak_time_range, Ga].
Qed.

(* the guard of the target eras (before v2) *)
Record guard_legacy (net : network) (s : pstate) : Prop := {
  l_depth : 2 ^ 64 <= p_depth s <= maxT;
  l_child : 2 ^ 64 <= p_child_target s <= maxT;
  l_oak : 2 ^ 64 <= p_oak_target s <= maxT;
  l_int : SEC <= n_interval net < 2 ^ 44;
  l_height : 1 <= child_height s;               (* not the genesis application *)
  l_asic_target : 1 <= n_asic_oaktarget net;
  l_asic_time : - 2 ^ 63 <= n_asic_oaktime net < 2 ^ 63
}.

Lemma maxT_val : maxT = 2 ^ 256 - 1. Proof. reflexivity. Qed.
Lemma maxT_ge : 2 ^ 64 <= maxT. Proof. apply Z.leb_le. reflexivity. Qed.

Lemma itt_ge c x : c <= 2 ^ 64 -> c <= x -> c <= int_to_target x.
Proof. intros Hc Hx. rewrite itt_min. pose proof maxT_ge. lia. Qed.
Lemma itt_pos x : 1 <= x -> 1 <= int_to_target x.
Proof. apply itt_ge. discriminate. Qed.

Lemma add_target_total x y : 2 ^ 63 <= x -> 2 ^ 63 <= y -> exists t, add_target x y = Ok t /\ 2 ^ 62 <= t.
Proof.
  intros Hx Hy. unfold add_target. rewrite (proj2 (Z.eqb_neq (x + y) 0)) by lia. eexists. split; [reflexivity|].
  apply itt_ge; [discriminate|]. apply Z.div_le_lower_bound; [lia|].
  (* each factor is at least 2^63: 2^63 * (x + y) <= x * y + x * y *)
  pose proof (Z.mul_le_mono_nonneg_r (2 ^ 63) y x). pose proof (Z.mul_le_mono_nonneg_r (2 ^ 63) x y). lia.
Qed.

Theorem update_total_work_legacy net s : child_height s < n_v2_allow net -> guard_legacy net s ->
  exists w d, update_total_work net s = Ok (w, d) /\ 2 ^ 62 <= d.
Proof.
  intros Hh [Gd Gc _ _ _ _ _]. unfold update_total_work. rewrite (proj2 (Z.ltb_lt _ _) Hh).
  destruct (add_target_total (p_depth s) (p_child_target s) ltac:(lia) ltac:(lia)) as (t & E & T). rewrite E. cbn [bind].
  rewrite inv_total by lia. cbn [bind]. eauto.
Qed.

Theorem update_oak_work_legacy net s : child_height s < n_v2_allow net -> guard_legacy net s ->
  exists w t, update_oak_work net s = Ok (w, t) /\ 1 <= t.
Proof.
  intros Hh [_ Gc Go _ _ Ga _]. unfold update_oak_work, update_oak_target. rewrite (proj2 (Z.ltb_lt _ _) Hh).
  destruct (_ =? _).
  - cbn [bind]. rewrite inv_total by lia. cbn [bind]. eauto.
  - rewrite mul_frac_total by discriminate. cbn [bind].
    assert (Hm : 2 ^ 63 <= int_to_target (p_oak_target s * 1000 / 995))
      by (apply itt_ge; [discriminate|]; apply Z.div_le_lower_bound; lia).
    destruct (add_target_total _ (p_child_target s) Hm ltac:(lia)) as (t & E2 & T). rewrite E2. cbn [bind].
    rewrite inv_total by lia. cbn [bind]. exists (maxT / t), t. split; [reflexivity | lia].
Qed.

Lemma legacy_interval net s : guard_legacy net s -> 1 <= Z.quot (n_interval net) SEC < 2 ^ 44.
Proof.
  intros [_ _ _ Gi _ _ _]. split; [apply Z.quot_le_lower_bound | apply Z.quot_lt_upper_bound]; unfold SEC in *; lia.
Qed.

Lemma adjust_target_total_preoak net s ts tt : guard_legacy net s -> child_height s <= n_oak_height net ->
  exists t, adjust_target net s ts tt = Ok t /\ 1 <= t.
Proof.
  intros G Hh. pose proof (legacy_interval net s G) as HI. destruct G as [_ Gc _ _ Gh _ _].
  destruct (Z.eqb_spec (child_height s mod 500) 0) as [Hm|Hm].
  2: { exists (p_child_target s). split; [apply adjust_target_preoak_off; assumption | lia]. }
  destruct (adjust_target_preoak net s ts tt Hh Hm) as (el & ex & E & A & B & C & _).
  { set (depth := if 1000 >? child_height s then child_height s else 1000).
    assert (Hd : 1 <= depth <= 1000) by (unfold depth; destruct (Z.gtb_spec 1000 (child_height s)); lia).
    revert HI. generalize (Z.quot (n_interval net) SEC). intros I HI.
    pose proof (Z.mul_pos_pos I depth ltac:(lia) ltac:(lia)).
    pose proof (Z.mul_le_mono_nonneg I (2 ^ 44) depth 1000 ltac:(lia) ltac:(lia) ltac:(lia) (proj2 Hd)).
    rewrite (w64_id depth), w64_id; lia. }
  rewrite E, mul_frac_total by lia. eexists. split; [reflexivity|].
  apply itt_pos, Z.div_le_lower_bound; [lia|].
  (* ex <= 2.5 * el <= target * el *)
  pose proof (Z.mul_le_mono_nonneg_r 3 (p_child_target s) el). lia.
Qed.

Lemma div_div_mul_le M a q t c : 0 <= M -> 0 < c <= a -> 1 <= q -> 0 <= t <= c -> 0 <= M / a / q * t <= M.
Proof.
  intros HM Ha Hq Ht.
  assert (0 <= M / a / q <= M / c).
  { split; [apply Z.div_pos; [apply Z.div_pos|]; lia|].
    apply Z.le_trans with (M / a); [apply div_le_self; [apply Z.div_pos|]; lia | apply Z.div_le_compat_l; lia]. }
  split; [apply Z.mul_nonneg_nonneg; lia|].
  apply Z.le_trans with (M / c * c); [apply Z.mul_le_mono_nonneg; lia|].
  rewrite Z.mul_comm. apply Z.mul_div_le. lia.
Qed.

(* Oak era, including the unclamped target at the ASIC height: the estimated hashrate maxT/oak_target/oak_time * tbt is
   at most maxT because the Oak target is at least 2^64 and the target block time at most 3 * 2^44 *)
Lemma adjust_target_total_oak net s ts tt : guard_legacy net s -> n_oak_height net < child_height s ->
  exists t, adjust_target net s ts tt = Ok t /\ 1 <= t.
Proof.
  intros G Hh. pose proof (legacy_interval net s G) as HI. destruct G as [_ Gc Go _ _ _ _].
  destruct (adjust_target_oak net s ts tt Hh) as (q & x & Hq & E). cbv zeta in E.
  set (nt := int_to_target (maxT / _)) in E.
  rewrite E, (proj2 (Z.eqb_neq (p_oak_target s) 0)) by lia. clear E.
  assert (Hlo : 1 <= int_to_target (p_child_target s * 1000 / 1004)) by (apply itt_pos, Z.div_le_lower_bound; lia).
  assert (Hhi : 1 <= int_to_target (p_child_target s * 1004 / 1000)) by (apply itt_pos, Z.div_le_lower_bound; lia).
  assert (Hn : 1 <= nt).
  { unfold nt. set (tbt := if x <? _ then _ else _).
    pose proof (clamp_interval (Z.quot (n_interval net) SEC) x ltac:(lia) ltac:(lia)) as Ht. fold tbt in Ht.
    pose proof (Z.div_pos (Z.quot (n_interval net) SEC) 3 ltac:(lia) eq_refl). clearbody tbt.
    set (t := if tbt =? 0 then 1 else tbt). assert (1 <= t <= 2 ^ 64) by (unfold t; destruct (Z.eqb_spec tbt 0); lia).
    clearbody t. pose proof maxT_ge.
    pose proof (div_div_mul_le maxT (p_oak_target s) q t (2 ^ 64) ltac:(lia) ltac:(lia) Hq ltac:(lia)) as He.
    revert He. generalize (maxT / p_oak_target s / q * t). intros eh He.
    apply itt_pos, Z.div_le_lower_bound; destruct (Z.eqb_spec eh 0); lia. }
  destruct (child_height s =? n_asic_height net); (eexists; split; [reflexivity|]); [exact Hn|].
  destruct (cmp_work nt _ <? 0); [exact Hhi|]. destruct (0 <? cmp_work nt _); assumption.
Qed.

Theorem adjust_target_total net s ts tt : guard_legacy net s -> exists t, adjust_target net s ts tt = Ok t /\ 1 <= t.
Proof.
  intros G. destruct (Z.le_gt_cases (child_height s) (n_oak_height net));
    [apply adjust_target_total_preoak | apply adjust_target_total_oak]; assumption.
Qed.

(* ApplyHeader on a non-genesis header before v2 never fails *)
Theorem apply_header_total_legacy net s ts tt : child_height s < n_v2_allow net -> guard_legacy net s ->
  exists s', apply_header net s false ts tt = Ok s'.
Proof.
  intros Hh G.
  destruct (update_total_work_legacy net s Hh G) as (w & d & E1 & _).
  assert (AD : exists dt, adjust_difficulty net s ts tt = Ok dt).
  { unfold adjust_difficulty. rewrite (proj2 (Z.ltb_lt _ _) Hh).
    destruct (adjust_target_total net s ts tt G) as (t & E & T). rewrite E. cbn [bind]. rewrite inv_total by lia. cbn [bind]. eauto. }
  destruct AD as (dt & E2).
  destruct (update_oak_work_legacy net s Hh G) as (w' & t' & E3 & _).
  destruct (apply_header_next net s ts tt _ _ _ E1 E2 E3) as (s' & E & _). exists s'. exact E.
Qed.

(* the guards are satisfiable *)
Definition ex_net : network := {| n_interval := 600 * SEC; n_oak_height := 10; n_oak_fix := 20; n_oak_genesis := 0;
  n_asic_height := 30; n_asic_oaktime := 120000 * SEC; n_asic_oaktarget := 2 ^ 200; n_asic_nonce := 1009; n_v2_allow := 100; n_v2_final := 200 |}.
Definition ex_state (h : Z) : pstate := {| p_height := h; p_prev := repeat 0 11; p_depth := 2 ^ 180; p_child_target := 2 ^ 190; p_oak_target := 2 ^ 185;
  p_total_work := 2 ^ 70; p_difficulty := 2 ^ 60; p_oak_work := 2 ^ 68; p_oak_time := 120000 * SEC |}.
Example guard_v2_holds : guard_v2 ex_net (ex_state 150).
Proof. constructor; split; (reflexivity || (apply Z.leb_le; reflexivity)). Qed.
Example guard_legacy_holds : guard_legacy ex_net (ex_state 50).
Proof. constructor; try split; (reflexivity || (apply Z.leb_le; reflexivity)). Qed.
