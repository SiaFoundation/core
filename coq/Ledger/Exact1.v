(* C08, the other direction for v1 transactions: the error code of a height or time rule is reported only when the height
   is on the wrong side of the bound. As in Exact2.v: the rules are a table ([why1]), and every function of the path reports
   only codes of the path's range, the code of a rule only when the table's condition holds ([ok1]). *)
From Coq Require Import ZArith List Bool Lia.
From Sia Require Import Prim.Result Prim.Tok Policy.Model Ledger.Types Ledger.Mid Ledger.Validate Ledger.Proofs Ledger.V1Sigs Ledger.Exact2.
Import ListNotations.
Open Scope Z_scope.

Lemma sum_scos_ne l c : sum_scos l <> Err c.
Proof. unfold sum_scos. apply csum_ne. Qed.
Lemma sum_eq_ne a b c : sum_eq a b <> Err c.
Proof.
  unfold sum_eq. intros E. apply bind_err in E. destruct E as [E | (x & _ & E)]; [exact (sum_scos_ne _ _ E)|].
  apply bind_err in E. destruct E as [E | (y & _ & E)]; [exact (sum_scos_ne _ _ E) | discriminate].
Qed.

Section Exact1.
Variable H : bytes -> bytes.
Variable net : lnetwork.
Variable vt : vtab.
Variable se sd : bytes.
Notation validate_siafunds := (validate_siafunds net).
Notation validate_file_contracts := (validate_file_contracts H net).
Notation validate_arbitrary := (validate_arbitrary net).
Notation validate_signatures := (validate_signatures vt se sd).
Notation validate_txn1 := (validate_txn1 H net vt se sd).
Notation sfi1_loop := (sfi1_loop net).

Section Txn.
Variables (s : lstate) (m : mid) (t : txn1) (ts : supp1).

(* the height and time rules of ValidateTransaction on [t]: 20 the require height; 24 / 30 / 39 / 64 a timelock (siacoin input,
   siafund input, revision, signature); 28 the maturity of an input's parent; 35 / 40 / 44 a window that has begun (new contract,
   revised contract, the contract a revision replaces); 53 a storage proof before the block at the window start exists *)
Definition why1 (c : Z) : Prop :=
  match c with
  | 20 => ln_v2_require net <= child s
  | 24 => exists i, In i (t1_sci t) /\ child s < i1_timelock i
  | 28 => exists i p lf, In i (t1_sci t) /\ sc_element m ts (i1_parent i) = Some (p, lf) /\ child s < sce_maturity p
  | 30 => exists i, In i (t1_sfi t) /\ child s < f1_timelock i
  | 35 => exists x, In x (t1_fc t) /\ fc_wstart (snd (fst x)) < child s
  | 39 => exists rv, In rv (t1_rev t) /\ child s < r1_timelock rv
  | 40 => exists rv, In rv (t1_rev t) /\ fc_wstart (r1_fc rv) < child s
  | 44 => exists rv p lf, In rv (t1_rev t) /\ fc_element m ts (r1_parent rv) = Some (p, lf) /\ fc_wstart (fce_fc p) < child s
  | 53 => exists sp, In sp (t1_sp t) /\ sp_window_id m ts s (s1_parent sp) = None
  | 64 => exists g, In g (t1_sigs t) /\ child s < g_timelock g
  | _ => True
  end.
Definition ok1 (c : Z) : Prop := 20 <= c <= 68 /\ why1 c.

Lemma overflow1_fails : fails (validate_currency_overflow t) ok1.
Proof. unfold validate_currency_overflow. cbv zeta. plains. Qed.
Lemma minimum_fails : fails (validate_minimum_values t) ok1.
Proof. unfold validate_minimum_values. plains. Qed.

Lemma in_sci1_fails : forall acc, fails (in_sci1 s m ts (t1_sci t) acc) ok1.
Proof.
  pattern (t1_sci t). apply part_ind; [intros acc; apply fails_ok | intros i r Hi IH acc]. cbn [in_sci1].
  apply fails_rule; [intros Lt%Z.ltb_lt; split; [lia | exists i; split; [exact Hi | exact Lt]]|].
  apply fails_check; [plain|].
  destruct (sc_element m ts (i1_parent i)) as [[p lf]|] eqn:El; [|apply fails_err; plain].
  apply fails_check; [plain|].
  apply fails_rule; [intros Lt2%Z.ltb_lt; split; [lia | exists i, p, lf; split; [exact Hi | split; [exact El | exact Lt2]]]|].
  apply fails_bind; [apply fails_ne, cadd_ne | intros a; apply IH].
Qed.
Lemma out_fees_fails l : forall acc, fails (out_fees l acc) ok1.
Proof. induction l as [|f r IH]; intros acc; cbn [out_fees]; [apply fails_ok|]. apply fails_check; [plain | apply IH]. Qed.
Lemma siacoins1_fails : fails (validate_siacoins s m t ts) ok1.
Proof.
  unfold validate_siacoins. apply fails_bind; [exact (in_sci1_fails 0) | intros insum].
  apply fails_bind; [apply fails_ne, csum_ne | intros o1]. apply fails_bind; [apply fails_ne, csum_ne | intros o2].
  apply fails_bind; [apply out_fees_fails | intros o3]. plains.
Qed.

Lemma sfi1_loop_fails : forall acc, fails (sfi1_loop s m ts (t1_sfi t) acc) ok1.
Proof.
  pattern (t1_sfi t). apply part_ind; [intros acc; apply fails_ok | intros i r Hi IH acc]. cbn [sfi1_loop].
  apply fails_rule; [intros Lt%Z.ltb_lt; split; [lia | exists i; split; [exact Hi | exact Lt]]|].
  apply fails_check; [plain|].
  destruct (sf_element m ts (f1_parent i)) as [[p lf]|]; [|apply fails_err; plain].
  apply fails_check; [plain | apply IH].
Qed.
Lemma siafunds1_fails : fails (validate_siafunds s m t ts) ok1.
Proof.
  unfold Validate.validate_siafunds. apply fails_bind; [exact (sfi1_loop_fails 0) | intros insum]. plains.
Qed.

Lemma file_contracts1_fails : fails (validate_file_contracts s m t ts) ok1.
Proof.
  unfold Validate.validate_file_contracts. apply fails_bind; [|intros _].
  { pattern (t1_fc t). apply part_ind; [apply fails_ok | intros [[i fc] z] r Hi IH]. cbv beta iota zeta fix.
    apply fails_rule; [intros Lt%Z.ltb_lt; split; [lia | exists (i, fc, z); split; [exact Hi | exact Lt]]|].
    apply fails_check; [plain|].
    apply fails_bind; [apply fails_ne, sum_scos_ne | intros v]. apply fails_bind; [apply fails_ne, sum_scos_ne | intros ms].
    apply fails_check; [plain|]. apply fails_bind; [apply fails_ne, cadd_ne | intros v'].
    apply fails_check; [plain | exact IH]. }
  apply fails_bind; [|intros _].
  { pattern (t1_rev t). apply part_ind; [apply fails_ok | intros rv r Hi IH]. cbv beta iota zeta fix.
    apply fails_rule; [intros L1%Z.ltb_lt; split; [lia | exists rv; split; [exact Hi | exact L1]]|].
    apply fails_rule; [intros L2%Z.ltb_lt; split; [lia | exists rv; split; [exact Hi | exact L2]]|].
    apply fails_check; [plain|]. apply fails_check; [plain|].
    destruct (fc_element m ts (r1_parent rv)) as [[p lf]|] eqn:El; [|apply fails_err; plain].
    apply fails_rule; [intros L3%Z.ltb_lt; split; [lia | exists rv, p, lf; split; [exact Hi | split; [exact El | exact L3]]]|].
    apply fails_check; [plain|]. apply fails_check; [plain|].
    apply fails_bind; [apply fails_ne, sum_eq_ne | intros e1]. apply fails_check; [plain|].
    apply fails_bind; [apply fails_ne, sum_eq_ne | intros e2]. apply fails_check; [plain | exact IH]. }
  apply fails_check; [plain|]. apply fails_bind; [|intros _].
  { induction (t1_sp t) as [|x r IH]; [apply fails_ok|]. cbv beta iota zeta fix. apply fails_check; [plain | exact IH]. }
  pattern (t1_sp t). apply part_ind; [apply fails_ok | intros sp r Hi IH]. cbv beta iota zeta fix.
  apply fails_check; [plain|].
  destruct (fc_element m ts (s1_parent sp)) as [[p lf]|]; [|apply fails_err; plain].
  destruct (sp_window_id m ts s (s1_parent sp)) as [w|] eqn:Ew; [|apply fails_err; split; [lia | exists sp; split; [exact Hi | exact Ew]]].
  destruct (sp_leaf_era _ _ _ _ _) as [leaf|]; [|exact IH].
  destruct (beq _ _); [exact IH | apply fails_err; plain].
Qed.

Lemma arbitrary_fails : fails (validate_arbitrary s t) ok1.
Proof.
  unfold Validate.validate_arbitrary. destruct (child s <? ln_foundation_height net); [apply fails_ok|].
  induction (t1_arb t) as [|a r IH]; [apply fails_ok|]. cbv beta iota zeta fix.
  destruct a as [| |p f]; [exact IH | apply fails_err; plain|]. apply fails_check; [plain|].
  destruct (existsb _ (t1_sci t)); [exact IH | apply fails_err; plain].
Qed.

Lemma add_entries_fails {A} (f : A -> id * list (bytes * bytes) * Z) code l : ok1 code -> forall m0, fails (add_entries f code l m0) ok1.
Proof.
  intros Oc. induction l as [|x r IH]; intros m0; cbn [add_entries]; [apply fails_ok|]. destruct (f x) as [[i k] n].
  destruct (add_entry m0 i k n); [apply IH | apply fails_err; exact Oc].
Qed.
Lemma sig_loop_fails : forall m0, fails (sig_loop vt se sd s (t1_sigs t) m0) ok1.
Proof.
  pattern (t1_sigs t). apply part_ind; [intros m0; apply fails_ok | intros g r Hi IH m0]. cbn [sig_loop].
  destruct (find _ m0) as [e|]; [|apply fails_err; plain].
  apply fails_check; [plain|]. apply fails_check; [plain|].
  apply fails_rule; [intros Lt%Z.ltb_lt; split; [lia | exists g; split; [exact Hi | exact Lt]]|].
  apply fails_check; [plain|]. cbv zeta. destruct (nth _ (se_keys e) _) as [alg key].
  destruct (beq alg sd); [destruct (vlookup _ _ _ _); [apply IH | apply fails_err; plain]|].
  apply fails_check; [plain | apply IH].
Qed.
Lemma signatures_fails : fails (validate_signatures s t) ok1.
Proof.
  unfold Validate.validate_signatures.
  do 3 (apply fails_bind; [apply add_entries_fails; plain | intros ?]).
  apply fails_bind; [apply sig_loop_fails | intros mf]. plains.
Qed.

Lemma txn1_fails : fails (validate_txn1 s m t ts) ok1.
Proof.
  unfold Validate.validate_txn1.
  apply fails_rule; [intros Le%Z.leb_le; split; [lia | exact Le]|].
  apply fails_bind; [exact overflow1_fails | intros _]. apply fails_check; [plain|].
  apply fails_bind; [exact minimum_fails | intros _]. apply fails_bind; [exact siacoins1_fails | intros _].
  apply fails_bind; [exact siafunds1_fails | intros _]. apply fails_bind; [exact file_contracts1_fails | intros _].
  apply fails_bind; [exact arbitrary_fails | intros _]. exact signatures_fails.
Qed.
End Txn.

Theorem txn1_height_errors s m t ts c : validate_txn1 s m t ts = Err c ->
  20 <= c <= 68 /\
  (c = 20 -> ln_v2_require net <= child s) /\
  (c = 24 -> exists i, In i (t1_sci t) /\ child s < i1_timelock i) /\
  (c = 28 -> exists i p lf, In i (t1_sci t) /\ sc_element m ts (i1_parent i) = Some (p, lf) /\ child s < sce_maturity p) /\
  (c = 30 -> exists i, In i (t1_sfi t) /\ child s < f1_timelock i) /\
  (c = 35 -> exists x, In x (t1_fc t) /\ fc_wstart (snd (fst x)) < child s) /\
  (c = 39 -> exists rv, In rv (t1_rev t) /\ child s < r1_timelock rv) /\
  (c = 40 -> exists rv, In rv (t1_rev t) /\ fc_wstart (r1_fc rv) < child s) /\
  (c = 44 -> exists rv p lf, In rv (t1_rev t) /\ fc_element m ts (r1_parent rv) = Some (p, lf) /\ fc_wstart (fce_fc p) < child s) /\
  (c = 53 -> exists sp, In sp (t1_sp t) /\ sp_window_id m ts s (s1_parent sp) = None) /\
  (c = 64 -> exists g, In g (t1_sigs t) /\ child s < g_timelock g).
Proof. intros E. destruct (txn1_fails s m t ts c E) as [Rg W]. split; [exact Rg|]. repeat split; intros ->; exact W. Qed.
End Exact1.
(* the two hardfork gates are exact *)
Theorem gates_exact H net vt pt se sd s m :
  (forall t, validate_txn2 H net vt pt se sd s m t = Err 70 <-> child s < ln_v2_allow net) /\
  (forall t ts, validate_txn1 H net vt se sd s m t ts = Err 20 <-> ln_v2_require net <= child s).
Proof.
  split; [intros t | intros t ts]; split.
  - intros E. exact (proj2 (txn2_fails H net vt pt se sd s m t 70 E)).
  - intros L. unfold validate_txn2. rewrite (proj2 (Z.ltb_lt _ _) L). reflexivity.
  - intros E. exact (proj2 (txn1_fails H net vt se sd s m t ts 20 E)).
  - intros L. unfold validate_txn1. rewrite (proj2 (Z.leb_le _ _) L). reflexivity.
Qed.

Print Assumptions txn1_height_errors.
