(* C10: the ID discipline as a decidable check of the block. Every ID the block mentions is declared with the kind of
   element it names; the check is that no ID is declared with two kinds. If it passes, the kind assignment exists. *)
From Coq Require Import ZArith List Bool Lia.
From Sia Require Import Prim.Result Prim.Tok Policy.Model Ledger.Types Ledger.Mid Ledger.Validate Ledger.Apply Ledger.Proofs Ledger.Marks1 Ledger.Wk2.
Import ListNotations.
Open Scope Z_scope.

Definition kind_eqb (a b : kind) : bool :=
  match a, b with KSC, KSC | KSF, KSF | KFC, KFC | KV2, KV2 | KAT, KAT => true | _, _ => false end.
Lemma kind_eqb_eq a b : kind_eqb a b = true -> a = b.
Proof. destruct a, b; cbn; intros E; try discriminate; reflexivity. Qed.

Definition decl := (id * kind)%type.
Definition decls1 (t : txn1) : list decl :=
  map (fun i => (i1_parent i, KSC)) (t1_sci t) ++ map (fun x : id * sco => (fst x, KSC)) (t1_sco t)
  ++ flat_map (fun i => [(f1_parent i, KSF); (f1_claim_id i, KSC)]) (t1_sfi t) ++ map (fun x : id * (Z * bytes) => (fst x, KSF)) (t1_sfo t)
  ++ map (fun x : id * fc1 * Z => (fst (fst x), KFC)) (t1_fc t) ++ map (fun rv => (r1_parent rv, KFC)) (t1_rev t)
  ++ flat_map (fun sp => (s1_parent sp, KFC) :: map (fun i => (i, KSC)) (s1_valid_ids sp)) (t1_sp t).
Definition decls2 (t : txn2) : list decl :=
  map (fun i => (sce_id (p_val (i2_parent i)), KSC)) (t2_sci t) ++ map (fun x : id * sco => (fst x, KSC)) (t2_sco t)
  ++ flat_map (fun i => [(sfe_id (p_val (f2_parent i)), KSF); (f2_claim_id i, KSC)]) (t2_sfi t) ++ map (fun x : id * (Z * bytes) => (fst x, KSF)) (t2_sfo t)
  ++ map (fun x : id * fc2 => (fst x, KV2)) (t2_fc t) ++ map (fun rv => (v2_id (p_val (r2_parent rv)), KV2)) (t2_rev t)
  ++ flat_map (fun rs => (v2_id (p_val (rs_parent rs)), KV2) :: (rs_renter_id rs, KSC) :: (rs_host_id rs, KSC)
                         :: match rs_res rs with RRenewal rn => [(rn_new_id rn, KV2)] | _ => [] end) (t2_res t)
  ++ map (fun a => (at_id a, KAT)) (t2_att t).
Definition declsB (b : lblock) : list decl :=
  flat_map decls1 (b_txns b) ++ flat_map decls2 (b_v2txns b) ++ map (fun p : id * sco => (fst p, KSC)) (b_payouts b) ++ [(b_foundation_id b, KSC)]
  ++ flat_map (fun pe : pres fce1 * list id => (fce_id (p_val (fst pe)), KFC) :: map (fun i => (i, KSC)) (snd pe)) (b_expiring b).

Definition consistent (l : list decl) : bool :=
  forallb (fun p => forallb (fun q => negb (beq (fst p) (fst q)) || kind_eqb (snd p) (snd q)) l) l.
Definition kind_from (l : list decl) (i : id) : kind :=
  match find (fun p => beq (fst p) i) l with Some p => snd p | None => KAT end.

Lemma kind_from_decl l i k : consistent l = true -> In (i, k) l -> kind_from l i = k.
Proof.
  intros C Hin. unfold kind_from. destruct (find (fun p => beq (fst p) i) l) as [p|] eqn:F.
  - apply find_some in F. destruct F as [Hp B]. apply beq_eq in B. unfold consistent in C. rewrite forallb_forall in C.
    specialize (C p Hp). rewrite forallb_forall in C. specialize (C (i, k) Hin). cbn [fst snd] in C. rewrite B, beq_refl in C. cbn in C. apply kind_eqb_eq. exact C.
  - exfalso. pose proof (find_none _ _ F (i, k) Hin) as N. cbn in N. rewrite beq_refl in N. discriminate.
Qed.

Lemma in_app3 {A} (x : A) a b c : In x b -> In x (a ++ b ++ c).
Proof. intros Hx. apply in_or_app. right. apply in_or_app. left. exact Hx. Qed.

(* a kind assignment that agrees with every declaration is one the block is well-kinded under: the declaration lists are
   the conjuncts of Kinds1, Kinds2 and KindsB laid end to end *)
Section Declared.
Variable kf : id -> kind.
Notation declared := (Forall (fun d : decl => kf (fst d) = snd d)).
Lemma decls1_kinds t : declared (decls1 t) -> Kinds1 kf t.
Proof.
  intros D. unfold decls1 in D. rewrite !Forall_app in D. destruct D as (D1 & D2 & D3 & D4 & D5 & D6 & D7).
  apply Forall_map in D1, D2, D4, D5, D6. apply Forall_flat_map in D3, D7.
  repeat split; try assumption; (eapply Forall_impl; [|eassumption]); cbv beta.
  - intros i D. inversion D as [|? ? Dp D']. inversion D'. split; assumption.
  - intros sp D. inversion D as [|? ? Dp D']. apply Forall_map in D'. split; assumption.
Qed.
Lemma decls2_kinds t : declared (decls2 t) -> Kinds2 kf t.
Proof.
  intros D. unfold decls2 in D. rewrite !Forall_app in D. destruct D as (D1 & D2 & D3 & D4 & D5 & D6 & D7 & D8).
  apply Forall_map in D1, D2, D4, D5, D6, D8. apply Forall_flat_map in D3, D7.
  repeat split; try assumption; (eapply Forall_impl; [|eassumption]); cbv beta.
  - intros i D. inversion D as [|? ? Dp D']. inversion D'. split; assumption.
  - intros rs D. inversion D as [|? ? Dp D1']. inversion D1' as [|? ? Dr D2']. inversion D2' as [|? ? Dh D3']. repeat split; try assumption.
    intros rn Er. rewrite Er in D3'. inversion D3'. assumption.
Qed.
Lemma declsB_kinds b : declared (declsB b) -> KindsB kf b.
Proof.
  intros D. unfold declsB in D. rewrite !Forall_app in D. destruct D as (D1 & D2 & D3 & D4 & D5).
  apply Forall_flat_map in D1, D2, D5. apply Forall_map in D3.
  split; [exact (Forall_impl _ decls1_kinds D1)|]. split; [exact (Forall_impl _ decls2_kinds D2)|]. split; [exact D3|]. split; [inversion D4; assumption|].
  eapply Forall_impl; [|exact D5]. cbv beta. intros pe D. inversion D as [|? ? Dp D']. apply Forall_map in D'. split; assumption.
Qed.
End Declared.

Section Check.
Variable b : lblock.
Hypothesis C : consistent (declsB b) = true.
Notation kf := (kind_from (declsB b)).
Theorem consistent_kinds : KindsB kf b.
Proof. apply declsB_kinds, Forall_forall. intros [i k]. apply kind_from_decl. exact C. Qed.
Lemma kinds2 t : In t (b_v2txns b) -> Kinds2 kf t.
Proof. destruct consistent_kinds as (_ & K & _). rewrite Forall_forall in K. exact (K t). Qed.
End Check.

(* the C10 statement with the check in place of the abstract kind assignment *)
Theorem accepted_consistent_block_applies H net vt pt se sd s b : validate_block H net vt pt se sd s b = Ok tt ->
  consistent (declsB b) = true -> (exists o, foundation_subsidy net s = Ok o) -> exists s' m, apply_block net s b = Ok (s', m).
Proof. intros V C S. exact (accepted_block_applies (kind_from (declsB b)) H net vt pt se sd s b V (consistent_kinds b C) S). Qed.

(* the check passes on a concrete block (one v2 transaction spending a siacoin element, a miner payout) *)
Example consistent_example :
  let e0 := {| sce_id := [1%N]; sce_out := {| sco_value := 5; sco_addr := [] |}; sce_maturity := 0 |} in
  let i0 := {| i2_parent := {| p_leaf := 0; p_proof_ok := true; p_val := e0 |}; i2_policy := {| sp_policy := PAbove 0; sp_sigs := []; sp_pres := [] |} |} in
  let t0 := {| t2_id := [3%N]; t2_weight := 100; t2_sighash := [4%N]; t2_sci := [i0]; t2_sco := [([2%N], {| sco_value := 5; sco_addr := [] |})];
               t2_sfi := []; t2_sfo := []; t2_fc := []; t2_rev := []; t2_res := []; t2_att := []; t2_new_foundation := None; t2_fee := 0 |} in
  let b := {| b_id := [7%N]; b_is_v2 := true; b_v2_height := 11; b_commit_ok := true; b_header_code := 0;
              b_payouts := [([9%N], {| sco_value := 1; sco_addr := [] |})]; b_foundation_id := [8%N];
              b_txns := []; b_v2txns := [t0]; b_supp := []; b_expiring := []; b_next_median := 0 |} in
  consistent (declsB b) = true.
Proof. vm_compute. reflexivity. Qed.
