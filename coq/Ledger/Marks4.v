(* C02 over histories: a siacoin element consumed by an accepted block is never consumed again by a later block -- the block
   marks its leaf spent (Marks3.consumed_leaf_marked) and a spent leaf is refused as a parent from then on
   (Persist.chain_no_reuse). *)
From Coq Require Import ZArith List Bool Lia.
From Sia Require Import Prim.Result Prim.Tok Policy.Model Ledger.Types Ledger.Mid Ledger.Validate Ledger.Apply Ledger.Proofs Ledger.Spends Ledger.Persist.
From Sia Require Import Ledger.Marks1 Ledger.Marks2 Ledger.Marks3.
Import ListNotations.
Open Scope Z_scope.

Section Never.
Variable H : bytes -> bytes.
Variable net : lnetwork.
Variable vt : vtab.
Variable pt : ptab.
Variable se sd : bytes.

(* block b consumes the siacoin element with ID id0 at leaf lf0 in state s; later, after any accepted chain of v2-only
   blocks, no accepted transaction has a siacoin input, siafund input, revision or resolution whose parent is that leaf *)
Theorem consumed_never_again (kind_of : id -> kind) (id0 : id) (lf0 : Z) s b s1 m t0 i0 bs s' :
  kind_of id0 = KSC ->
  validate_block H net vt pt se sd s b = Ok tt -> apply_block net s b = Ok (s1, m) -> b_txns b = [] -> b_expiring b = [] ->
  Forall (TxOK kind_of id0 lf0) (b_v2txns b) ->
  Forall (fun p : id * sco => kind_of (fst p) = KSC /\ fst p <> id0) (b_payouts b) -> kind_of (b_foundation_id b) = KSC -> b_foundation_id b <> id0 ->
  In t0 (b_v2txns b) -> In i0 (t2_sci t0) -> sce_id (p_val (i2_parent i0)) = id0 -> p_leaf (i2_parent i0) = lf0 -> lf0 <> UNASSIGNED ->
  chain H net vt pt se sd s1 bs s' ->
  forall mm t, validate_txn2 H net vt pt se sd s' mm t = Ok tt ->
    (forall i, In i (t2_sci t) -> p_leaf (i2_parent i) <> UNASSIGNED -> Z.to_nat (p_leaf (i2_parent i)) <> Z.to_nat lf0) /\
    (forall i, In i (t2_sfi t) -> p_leaf (f2_parent i) <> UNASSIGNED -> Z.to_nat (p_leaf (f2_parent i)) <> Z.to_nat lf0) /\
    (forall rv, In rv (t2_rev t) -> Z.to_nat (p_leaf (r2_parent rv)) <> Z.to_nat lf0) /\
    (forall rs, In rs (t2_res t) -> Z.to_nat (p_leaf (rs_parent rs)) <> Z.to_nat lf0).
Proof.
  intros K0 V A T0 X0 Otx Opay Kf Nf Ht0 Hi0 Eid Elf Nun C mm t Vt.
  exact (chain_no_reuse H net vt pt se sd s1 bs s' _ C (consumed_leaf_marked H net vt pt se sd s kind_of id0 lf0 K0 b s1 m t0 i0 V A T0 X0 Otx Opay Kf Nf Ht0 Hi0 Eid Elf Nun) mm t Vt).
Qed.
End Never.

(* an instance: a state with one unspent siacoin leaf and a v2 block whose only transaction spends it -- the block is accepted,
   applying it marks the leaf spent, and its transaction is [TxOK]; the other premises of the theorem can be read off [b] *)
Example consumed_example :
  let Hid := fun x : bytes => x in
  let net := {| ln_v2_allow := 0; ln_v2_require := 0; ln_v2_final := 0; ln_v2_ephemeral := 0; ln_maturity_delay := 144; ln_tax_height := 0;
                ln_sp_height := 0; ln_foundation_height := 0; ln_devaddr_height := 0; ln_devaddr_old := []; ln_devaddr_new := [];
                ln_initial_coinbase := 300000 * 10 ^ 24; ln_min_coinbase := 30000 * 10 ^ 24; ln_blocks_per_month := 4380; ln_blocks_per_year := 52560 |} in
  let pol := PAbove 0 in
  let e0 := {| sce_id := [1%N]; sce_out := {| sco_value := 5; sco_addr := address Hid pol |}; sce_maturity := 0 |} in
  let s := {| s_height := 10; s_index_id := []; s_pool := 0; s_found_subsidy := void_addr; s_found_mgmt := void_addr; s_median := 0;
              s_leaves := [{| l_elem := ESC e0; l_spent := false |}] |} in
  let i0 := {| i2_parent := {| p_leaf := 0; p_proof_ok := true; p_val := e0 |}; i2_policy := {| sp_policy := pol; sp_sigs := []; sp_pres := [] |} |} in
  let t0 := {| t2_id := [3%N]; t2_weight := 100; t2_sighash := [4%N]; t2_sci := [i0]; t2_sco := [([2%N], {| sco_value := 5; sco_addr := [] |})];
               t2_sfi := []; t2_sfo := []; t2_fc := []; t2_rev := []; t2_res := []; t2_att := []; t2_new_foundation := None; t2_fee := 0 |} in
  let b := {| b_id := [7%N]; b_is_v2 := true; b_v2_height := 11; b_commit_ok := true; b_header_code := 0;
              b_payouts := [([9%N], {| sco_value := 300000 * 10 ^ 24 - 11 * 10 ^ 24; sco_addr := [] |})]; b_foundation_id := [8%N];
              b_txns := []; b_v2txns := [t0]; b_supp := []; b_expiring := []; b_next_median := 0 |} in
  validate_block Hid net [] [] [] [] s b = Ok tt /\
  exists s1 m, apply_block net s b = Ok (s1, m) /\ SpentAt (s_leaves s1) 0 /\ Forall (TxOK (fun _ => KSC) [1%N] 0) (b_v2txns b).
Proof.
  cbv zeta. split; [vm_compute; reflexivity|]. eexists. eexists. split; [vm_compute; reflexivity|]. split.
  - eexists. split; reflexivity.
  - constructor; [|constructor]. unfold TxOK. cbn. repeat split; repeat constructor; try discriminate; try reflexivity.
Qed.
