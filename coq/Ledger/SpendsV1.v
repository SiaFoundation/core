(* C02 for blocks with v1 transactions: validate_txn1 and apply_txn1 treat the spends map as their v2 counterparts do
   (Spends.v), so a block that mixes v1 and v2 transactions spends no siacoin element twice. *)
From Coq Require Import ZArith List Bool Lia.
From Sia Require Import Prim.Result Prim.Tok Policy.Model Ledger.Types Ledger.Mid Ledger.Validate Ledger.Apply Ledger.Proofs Ledger.Spends Ledger.V1Sigs.
Import ListNotations.
Open Scope Z_scope.

Section Block1.
Variable H : bytes -> bytes.
Variable net : lnetwork.
Variable vt : vtab.
Variable pt : ptab.
Variable se sd : bytes.

Definition v1_sci_ids (t : txn1) : list id := map i1_parent (t1_sci t).

(* the signature table refuses a second entry for one parent, so the parents it lists are pairwise distinct *)
Lemma add_entries_nodup {A} (f : A -> id * list (bytes * bytes) * Z) code l : forall m m', add_entries f code l m = Ok m' ->
  NoDup (map (fun x => fst (fst (f x))) l) /\ (forall x, In x l -> ~ In (fst (fst (f x))) (map se_id m)) /\
  (forall i, In i (map se_id m) -> In i (map se_id m')).
Proof.
  induction l as [|x l IH]; intros m m' E; cbn [add_entries] in E.
  - inversion E; subst. split; [constructor|]. split; [intros ? []|auto].
  - destruct (f x) as [[i k] n] eqn:Fx. unfold add_entry in E. destruct (existsb (fun e => beq (se_id e) i) m) eqn:Ex; [discriminate|].
    destruct (IH _ _ E) as (ND & NI & Mono). cbn [map]. rewrite Fx. cbn [fst].
    assert (Ni : ~ In i (map se_id m)).
    { intros Hin. apply in_map_iff in Hin. destruct Hin as (e & Ee & He).
      assert (existsb (fun e => beq (se_id e) i) m = true) by (apply existsb_exists; exists e; split; [exact He | rewrite Ee; apply beq_refl]). congruence. }
    split; [|split].
    + constructor; [|exact ND]. intros Hin. apply in_map_iff in Hin. destruct Hin as (y & Ey & Hy).
      apply (NI y Hy). rewrite Ey. rewrite map_app. apply in_or_app. right. left. reflexivity.
    + intros y [<-|Hy]; [rewrite Fx; exact Ni|]. intros Hin. apply (NI y Hy). rewrite map_app. apply in_or_app. left. exact Hin.
    + intros j Hj. apply Mono. rewrite map_app. apply in_or_app. left. exact Hj.
Qed.

Lemma validate_txn1_inputs_fresh s m t ts : validate_txn1 H net vt se sd s m t ts = Ok tt ->
  (Forall (fun i => is_spent m i = false) (map i1_parent (t1_sci t)) /\ NoDup (map i1_parent (t1_sci t))) /\
  (Forall (fun i => is_spent m i = false) (map f1_parent (t1_sfi t)) /\ NoDup (map f1_parent (t1_sfi t))).
Proof.
  intros V. pose proof (v1_inputs_gated H net vt se sd s m t ts V) as F1. destruct (validate_txn1_ok H net vt se sd s m t ts V) as (_ & _ & Vsf & _ & _ & Vsig).
  unfold validate_siafunds in Vsf. apply bind_ok in Vsf. destruct Vsf as (insum' & L2 & _). apply (sfi1_loop_ok net) in L2. destruct L2 as [F2 _].
  unfold validate_signatures in Vsig. apply bind_ok in Vsig as (m1 & Esc & Vsig). apply bind_ok in Vsig as (m2 & Esf & _).
  apply add_entries_nodup in Esc. destruct Esc as [N1 _]. apply add_entries_nodup in Esf. destruct Esf as [N2 _].
  split; (split; [apply Forall_map | assumption]).
  - exact (Forall_impl _ (fun i G => proj1 (proj2 G)) F1).
  - exact (Forall_impl _ (fun i G => proj1 (proj2 G)) F2).
Qed.
Theorem validate_txn1_fresh s m t ts : validate_txn1 H net vt se sd s m t ts = Ok tt ->
  Forall (fun i => is_spent m i = false) (v1_sci_ids t) /\ NoDup (v1_sci_ids t).
Proof. intros V. exact (proj1 (validate_txn1_inputs_fresh s m t ts V)). Qed.

Lemma apply_txn1_enters s t ts :
  enters (t1_id t) (map i1_parent (t1_sci t) ++ map f1_parent (t1_sfi t) ++ map s1_parent (t1_sp t)) (fun m => apply_txn1 net s m t ts).
Proof.
  unfold apply_txn1. cbv zeta. apply enters_bind.
  { apply enters_fold. intros i m0 m1 S. destruct (sc_element m0 ts (i1_parent i)) as [[e lf]|] eqn:Q; [|discriminate].
    rewrite <- (sc_element_id _ _ _ _ _ Q). exact (spend_sce_sp _ _ _ _ _ S). }
  apply enters_later; [apply enters_fold_none; intros o m0 m1; apply create_sce_sp|].
  apply enters_bind.
  { apply enters_fold. intros i m0 m1 S. destruct (sf_element m0 ts (f1_parent i)) as [[e lf]|] eqn:Q; [|discriminate].
    apply bind_ok in S. destruct S as (c & _ & S). apply bind_ok in S. destruct S as (ma & Sa & S).
    rewrite (create_sce_sp _ _ _ _ _ S), <- (sf_element_id _ _ _ _ _ Q). exact (spend_sfe_sp _ _ _ _ _ Sa). }
  apply enters_later; [apply enters_fold_none; intros o m0 m1; apply create_sfe_sp|].
  apply enters_later; [apply enters_fold_none; intros [[i fc] tax] m0 m1; apply create_fce_sp|].
  apply enters_later.
  { apply enters_fold_none. intros rv m0 m1 S. destruct (fc_element m0 ts (r1_parent rv)) as [[e lf]|]; [exact (revise_fce_sp _ _ _ _ _ S) | discriminate]. }
  apply enters_first.
  { apply enters_fold. intros sp m0 m1 S. destruct (fc_element m0 ts (s1_parent sp)) as [[e lf]|] eqn:Q; [|discriminate].
    rewrite <- (fc_element_id _ _ _ _ _ Q). clear Q. revert m0 m1 S.
    apply enters_first; [intros m0 m1; apply resolve_fce_sp | apply enters_fold_none; intros io m0 m1; apply create_sce_sp]. }
  intros m0 m' E. destruct (ln_foundation_height net <=? s_height s); inversion E; [|reflexivity].
  apply (keeps_fold_left (fun m1 => m_spends m1 = m_spends m0)); [intros a m1 _ E1; destruct a; exact E1 | reflexivity].
Qed.
Lemma apply_txn1_inputs_spent s m t ts m' : apply_txn1 net s m t ts = Ok m' ->
  ext m m' /\ Forall (fun i => is_spent m' i = true) (map i1_parent (t1_sci t)) /\ Forall (fun i => is_spent m' i = true) (map f1_parent (t1_sfi t)).
Proof.
  intros E. destruct (entered_spent _ _ _ _ (apply_txn1_enters s t ts m m' E)) as [X F]. split; [exact X|].
  apply Forall_app in F. destruct F as [F1 F]. apply Forall_app in F. destruct F as [F2 _]. split; assumption.
Qed.
Theorem apply_txn1_spends s m t ts m' : apply_txn1 net s m t ts = Ok m' ->
  ext m m' /\ Forall (fun i => is_spent m' i = true) (v1_sci_ids t).
Proof. intros E. destruct (apply_txn1_inputs_spent s m t ts m' E) as (X & F & _). split; assumption. Qed.

Lemma validate_txns1_consume s (sel : txn1 -> list id) :
  (forall m t u m', validate_txn1 H net vt se sd s m t u = Ok tt -> apply_txn1 net s m t u = Ok m' -> consumes m m' (sel t)) ->
  forall txs us m m', validate_txns1 H net vt se sd s m txs us = Ok m' -> consumes m m' (flat_map sel txs).
Proof.
  intros Hsel. induction txs as [|t r IH]; intros us m m' E; cbn [validate_txns1 flat_map] in *.
  - inversion E; subst. apply consumes_nil.
  - destruct us as [|u ur]; [discriminate|]. apply bind_ok in E. destruct E as ([] & V & E). apply bind_ok in E. destruct E as (m1 & A & E).
    exact (consumes_app _ _ _ _ _ (Hsel _ _ _ _ V A) (IH _ _ _ E)).
Qed.
Lemma mixed_consume s b (sel1 : txn1 -> list id) (sel2 : txn2 -> list id) :
  (forall m t u m', validate_txn1 H net vt se sd s m t u = Ok tt -> apply_txn1 net s m t u = Ok m' -> consumes m m' (sel1 t)) ->
  (forall m t m', vstep H net vt pt se sd s m t = Ok m' -> consumes m m' (sel2 t)) ->
  validate_block H net vt pt se sd s b = Ok tt -> NoDup (flat_map sel1 (b_txns b) ++ flat_map sel2 (b_v2txns b)).
Proof.
  intros H1 H2 V. destruct (validate_block_ok H net vt pt se sd s b V) as (_ & _ & m1 & m2 & E1 & E2).
  exact (proj1 (proj2 (consumes_app _ _ _ _ _ (validate_txns1_consume s sel1 H1 _ _ _ _ E1) (consumes_fold _ sel2 _ H2 _ _ E2)))).
Qed.

Theorem mixed_block_no_double_spend s b : validate_block H net vt pt se sd s b = Ok tt ->
  NoDup (flat_map v1_sci_ids (b_txns b) ++ flat_map sci_ids (b_v2txns b)).
Proof.
  apply mixed_consume.
  - intros m t u m' V A. destruct (validate_txn1_fresh s m t u V) as [F N]. destruct (apply_txn1_spends s m t u m' A) as [X S]. repeat split; assumption.
  - intros m t m' E. exact (proj1 (vstep_consumes H net vt pt se sd s m t m' E)).
Qed.
End Block1.
