(* C06, all eras: for every accepted block -- v1 transactions, v1 contracts revised, proven or expiring included -- every
   diff with an assigned leaf records exactly the element that leaf held, so undoing the block restores the element store. *)
From Coq Require Import ZArith List Bool Lia.
From Sia Require Import Prim.Result Prim.Tok Policy.Model Ledger.Types Ledger.Mid Ledger.Validate Ledger.Apply Ledger.Proofs Ledger.Spends Ledger.VApply Ledger.Persist Ledger.Persist1 Ledger.Revert Ledger.RevertOk.
Import ListNotations.
Open Scope Z_scope.

Section RevertOk1.
Variable H : bytes -> bytes.
Variable net : lnetwork.
Variable vt : vtab.
Variable pt : ptab.
Variable se sd : bytes.
Variable s : lstate.
Notation holds := (RevertOk.holds s).
Notation Qsc := (RevertOk.Qsc s).
Notation Qsf := (RevertOk.Qsf s).
Notation Qv2 := (RevertOk.Qv2 s).

Definition Qfc (d : fced) : Prop := d_fc_leaf d = UNASSIGNED \/ (d_fc_created d = false /\ holds (d_fc_leaf d) (EFC (d_fce d))).
Definition QInv1 (m : mid) : Prop := Forall Qsc (m_sces m) /\ Forall Qsf (m_sfes m) /\ Forall Qfc (m_fces m) /\ Forall Qv2 (m_v2fces m).
Lemma qfc_holds d : Qfc d -> d_fc_leaf d = UNASSIGNED \/ holds (d_fc_leaf d) (EFC (d_fce d)).
Proof. intros [U|[_ Hh]]; [left; exact U | right; exact Hh]. Qed.

Lemma create_fce_q1 i fc tax : keeps QInv1 (fun m => create_fce m i fc tax).
Proof. apply create_fce_entries. left. reflexivity. Qed.
(* what a record of the presented (e, lf) needs: only when the slot holds neither a creation nor a revision *)
Definition RecOK (m : mid) (e : fce1) (lf : Z) : Prop :=
  forall k fresh, slot m (fce_id e) (m_fces m) = Ok (k, fresh) ->
    d_fc_created (nth k (m_fces m) dummy_fced) = false -> d_fc_rev (nth k (m_fces m) dummy_fced) = None ->
    lf = UNASSIGNED \/ holds lf (EFC e).
Lemma revise_fce_q1 m e lf rev m' : RecOK m e lf -> revise_fce m e lf rev = Ok m' -> QInv1 m -> QInv1 m'.
Proof.
  intros Hr. apply revise_fce_entries. intros k fresh Sl old Ho rev'. specialize (Hr k fresh Sl). fold old in Hr.
  destruct (d_fc_created old) eqn:Cr.
  - destruct Ho as [[_ Eo]|[_ [U|[C _]]]]; [rewrite Eo in Cr; discriminate | left; exact U | congruence].
  - destruct (d_fc_rev old) eqn:Rv.
    + destruct Ho as [[_ Eo]|[_ [U|[_ Hh]]]]; [rewrite Eo in Rv; discriminate | left; exact U | right; split; [reflexivity | exact Hh]].
    + destruct (Hr eq_refl eq_refl) as [U|Hh]; [left; exact U | right; split; [reflexivity | exact Hh]].
Qed.
Lemma resolve_fce_q1 m e lf valid tx m' : RecOK m e lf -> resolve_fce m e lf valid tx = Ok m' -> QInv1 m -> QInv1 m'.
Proof.
  intros Hr. apply resolve_fce_entries. intros k fresh Sl old Ho keep. specialize (Hr k fresh Sl). fold old in Hr. unfold keep, Qfc. cbn.
  destruct (d_fc_created old) eqn:Cr; cbn [orb].
  - destruct Ho as [[_ Eo]|[_ [U|[C _]]]]; [rewrite Eo in Cr; discriminate | left; exact U | congruence].
  - destruct (d_fc_rev old) eqn:Rv.
    + destruct Ho as [[_ Eo]|[_ [U|[_ Hh]]]]; [rewrite Eo in Rv; discriminate | left; exact U | right; split; [reflexivity | exact Hh]].
    + destruct (Hr eq_refl eq_refl) as [U|Hh]; [left; exact U | right; split; [reflexivity | exact Hh]].
Qed.

(* what a lookup of a v1 transaction returns is what the diff holds already, or a supplement element that
   validate_supplement has compared with its leaf *)
Definition SuppAll (u : supp1) : Prop :=
  Forall (fun p => fst (mem_sc s p) = true) (u_sci u) /\ Forall (fun p => fst (mem_sf s p) = true) (u_sfi u) /\
  Forall (fun p => fst (mem_fc s p) = true) (u_rev u) /\ Forall (fun x => fst (mem_fc s (ss_fc x)) = true) (u_sp u).
Lemma sc_element_rec m ts i e lf : QInv1 m -> SuppAll ts -> sc_element m ts i = Some (e, lf) -> lf = UNASSIGNED \/ holds lf (ESC e).
Proof.
  intros (I1 & _) (S1 & _) E. rewrite Forall_forall in I1, S1.
  destruct (sc_element_cases _ _ _ _ _ E) as [(k & d & _ & N & _ & -> & ->)|(p & Hin & _ & -> & ->)]; [exact (I1 d (nth_error_In _ _ N)) | right; exact (mem_sc_unspent s p (S1 p Hin))].
Qed.
Lemma sf_element_rec m ts i e lf : QInv1 m -> SuppAll ts -> sf_element m ts i = Some (e, lf) -> lf = UNASSIGNED \/ holds lf (ESF e).
Proof.
  intros (_ & I2 & _) (_ & S2 & _) E. rewrite Forall_forall in I2, S2.
  destruct (sf_element_cases _ _ _ _ _ E) as [(k & d & _ & N & _ & -> & ->)|(p & Hin & _ & -> & ->)]; [exact (I2 d (nth_error_In _ _ N)) | right; exact (mem_sf_unspent s p (S2 p Hin))].
Qed.
Lemma fc_element_rec m ts i e lf : QInv1 m -> SuppAll ts -> fc_element m ts i = Some (e, lf) -> RecOK m e lf.
Proof.
  intros (_ & _ & I3 & _) (_ & _ & S3 & S4) E k fresh Sl Cr Rv. rewrite Forall_forall in I3, S3, S4.
  destruct (fc_element_cases _ _ _ _ _ E) as [(k0 & d & Ei & N & Ed & -> & Ee)|(p & Hin & _ & -> & ->)].
  - (* the diff the MidState already holds for this ID: the slot of the record is this very diff *)
    assert (Ie : fce_id e = i) by (rewrite Ee; destruct (d_fc_rev d); exact Ed).
    rewrite Ie in Sl. unfold slot in Sl. rewrite Ei in Sl. destruct (Nat.ltb_spec k0 (length (m_fces m))); [|discriminate]. inversion Sl; subst k fresh.
    rewrite (nth_error_nth _ _ dummy_fced N) in Cr, Rv. rewrite Rv in Ee. subst e. exact (qfc_holds d (I3 d (nth_error_In _ _ N))).
  - right. destruct Hin as [Hin|(x & Hin & ->)]; [exact (mem_fc_unspent s p (S3 p Hin)) | exact (mem_fc_unspent s _ (S4 x Hin))].
Qed.

Lemma apply_txn1_q1 m t ts m' : SuppAll ts -> apply_txn1 net s m t ts = Ok m' -> QInv1 m -> QInv1 m'.
Proof.
  intros So. revert m m'. apply apply_txn1_keeps.
  - intros i m e lf _ Q Se m' E. exact (spend_sce_q s Qfc e lf _ (sc_element_rec _ _ _ _ _ Q So Se) m m' E Q).
  - intros. apply (create_sce_q s Qfc).
  - intros i m e lf _ Q Se. split; [intros m' E; exact (spend_sfe_q s Qfc e lf _ (sf_element_rec _ _ _ _ _ Q So Se) m m' E Q) | intros o; apply (create_sce_q s Qfc)].
  - intros. apply (create_sfe_q s Qfc).
  - intros. apply create_fce_q1.
  - intros rv m e lf _ Q Fe m' E. exact (revise_fce_q1 _ _ _ _ _ (fc_element_rec _ _ _ _ _ Q So Fe) E Q).
  - intros sp m e lf _ Q Fe. split; [intros m' E; exact (resolve_fce_q1 _ _ _ _ _ _ (fc_element_rec _ _ _ _ _ Q So Fe) E Q) | intros; apply (create_sce_q s Qfc)].
  - intros m0 a b Q. exact Q.
Qed.

Lemma supplement_all b : validate_supplement net s b = Ok tt ->
  Forall SuppAll (b_supp b) /\ Forall (fun p : pres fce1 * list id => holds (p_leaf (fst p)) (EFC (p_val (fst p)))) (b_expiring b).
Proof.
  intros Vs. destruct (validate_supplement_ok net s b Vs) as (_ & _ & Fs & Fe). split; [exact Fs|].
  eapply Forall_impl; [|exact Fe]. cbv beta. intros p Hp. exact (mem_fc_unspent s _ Hp).
Qed.

Theorem revert_restores_any b s' m : validate_block H net vt pt se sd s b = Ok tt -> apply_block net s b = Ok (s', m) ->
  revert_leaves s s' m b = s_leaves s.
Proof.
  intros V A. destruct (validate_block_ok H net vt pt se sd s b V) as (_ & Vs & _). destruct (supplement_all b Vs) as [So Sx]. rewrite Forall_forall in So, Sx.
  apply (revert_restores_slices H net vt pt se sd s Qfc qfc_holds b s' m V A).
  - apply apply_txns1_keeps. intros t u Hin m0 m0'. apply apply_txn1_q1, So. exact (in_combine_r _ _ _ _ Hin).
  - intros pe Hpe m0 m0'. apply resolve_fce_q1. intros k fresh _ _ _. right. exact (Sx pe Hpe).
Qed.
End RevertOk1.
