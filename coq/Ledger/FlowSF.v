(* C01: an accepted transaction neither creates nor destroys siafunds. The implementation adds the values as uint64, so the
   statement is the equality of the two sums modulo 2^64, and the plain equality when neither sum reaches 2^64 (the values
   of all siafund elements of a chain add up to the 10000 of the genesis allocation). *)
From Coq Require Import ZArith List Bool Lia.
From Sia Require Import Prim.Result Prim.Tok Policy.Model Ledger.Types Ledger.Mid Ledger.Validate Ledger.Proofs.
Import ListNotations.
Open Scope Z_scope.

Lemma fold_mod_sum {A} (f : A -> Z) l : forall acc, fold_left (fun a x => (a + f x) mod 2 ^ 64) l acc mod 2 ^ 64 = (acc + zsum (map f l)) mod 2 ^ 64.
Proof.
  induction l as [|x l IH]; intros acc; cbn [fold_left map zsum fold_right].
  - rewrite Z.add_0_r. reflexivity.
  - rewrite IH. rewrite Zplus_mod_idemp_l. f_equal. unfold zsum. lia.
Qed.
Lemma fold_mod_range {A} (f : A -> Z) l : forall acc, 0 <= acc < 2 ^ 64 -> 0 <= fold_left (fun a x => (a + f x) mod 2 ^ 64) l acc < 2 ^ 64.
Proof.
  induction l as [|x l IH]; intros acc B; cbn [fold_left]; [exact B|]. apply IH. apply Z.mod_pos_bound. reflexivity.
Qed.

Section FlowSF.
Variable H : bytes -> bytes.
Variable net : lnetwork.
Variable vt : vtab.
Variable pt : ptab.
Variable se sd : bytes.

Definition sf_in2 (t : txn2) : Z := zsum (map (fun i => sfe_value (p_val (f2_parent i))) (t2_sfi t)).
Definition sf_out2 (t : txn2) : Z := zsum (map (fun x : id * (Z * bytes) => fst (snd x)) (t2_sfo t)).

Lemma sfo_loop_ok (l : list (id * (Z * bytes))) : forall acc r,
  (fix go (l : list (id * (Z * bytes))) (acc : Z) : R Z :=
     match l with [] => Ok acc | (_, (v, _)) :: r => if v =? 0 then err 94 else go r ((acc + v) mod 2 ^ 64) end) l acc = Ok r ->
  r = fold_left (fun a (x : id * (Z * bytes)) => (a + fst (snd x)) mod 2 ^ 64) l acc /\ Forall (fun x : id * (Z * bytes) => fst (snd x) <> 0) l.
Proof.
  induction l as [|[i [v a]] l IH]; intros acc r E.
  - inversion E. split; [reflexivity | constructor].
  - cbv beta iota zeta fix in E. destruct (Z.eqb_spec v 0) as [|Nz]; [discriminate|]. destruct (IH _ _ E) as [E1 F]. split; [exact E1|]. constructor; [exact Nz | exact F].
Qed.

Theorem v2_siafunds_balance s m t : validate_v2_siafunds H net vt pt se sd s m t = Ok tt ->
  sf_in2 t mod 2 ^ 64 = sf_out2 t mod 2 ^ 64 /\ Forall (fun x : id * (Z * bytes) => fst (snd x) <> 0) (t2_sfo t).
Proof.
  unfold validate_v2_siafunds. intros E. apply bind_ok in E. destruct E as ([] & _ & E). cbv zeta in E.
  apply bind_ok in E. destruct E as (o & Eo & E). destruct (sfo_loop_ok _ _ _ Eo) as [-> F].
  match type of E with (if ?a =? ?b then _ else _) = _ => destruct (Z.eqb_spec a b) as [Eq|]; [|discriminate] end.
  split; [|exact F]. apply (f_equal (fun z => z mod 2 ^ 64)) in Eq.
  rewrite (fold_mod_sum (fun i => sfe_value (p_val (f2_parent i)))) in Eq. rewrite (fold_mod_sum (fun x : id * (Z * bytes) => fst (snd x))) in Eq. exact Eq.
Qed.
Corollary v2_siafunds_balance_exact s m t : validate_v2_siafunds H net vt pt se sd s m t = Ok tt ->
  0 <= sf_in2 t < 2 ^ 64 -> 0 <= sf_out2 t < 2 ^ 64 -> sf_in2 t = sf_out2 t.
Proof. intros E Bi Bo. destruct (v2_siafunds_balance s m t E) as [Eq _]. rewrite !Z.mod_small in Eq by assumption. exact Eq. Qed.

Definition sf_value1 (m : mid) (ts : supp1) (i : sfi1) : Z := match sf_element m ts (f1_parent i) with Some (p, _) => sfe_value p | None => 0 end.
Definition sf_in1 (m : mid) (ts : supp1) (t : txn1) : Z := zsum (map (sf_value1 m ts) (t1_sfi t)).
Definition sf_out1 (t : txn1) : Z := zsum (map (fun x : id * (Z * bytes) => fst (snd x)) (t1_sfo t)).
Theorem v1_siafunds_balance s m t ts : validate_siafunds net s m t ts = Ok tt -> sf_in1 m ts t mod 2 ^ 64 = sf_out1 t mod 2 ^ 64.
Proof.
  unfold validate_siafunds. intros E. apply bind_ok in E. destruct E as (insum & Ei & E). cbv zeta in E.
  match type of E with (if ?a =? ?b then _ else _) = _ => destruct (Z.eqb_spec a b) as [Eq|]; [|discriminate] end.
  apply (sfi1_loop_ok net) in Ei. destruct Ei as [_ ->]. apply (f_equal (fun z => z mod 2 ^ 64)) in Eq.
  rewrite (fold_mod_sum (sf_value1 m ts)) in Eq. rewrite (fold_mod_sum (fun x : id * (Z * bytes) => fst (snd x))) in Eq. exact Eq.
Qed.
End FlowSF.
Print Assumptions v2_siafunds_balance.
Print Assumptions v1_siafunds_balance.
