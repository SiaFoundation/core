(* C02 over histories: a leaf that is marked spent stays marked spent through every accepted block, so no later block of
   the chain is accepted with an input that points at it. This file: the invariant of the MidState that carries it, for the
   siacoin, siafund and v2 contract diffs; chains of v2-only blocks. Persist1.v adds the v1 contract diffs. *)
From Coq Require Import ZArith List Bool Lia.
From Sia Require Import Prim.Result Prim.Tok Policy.Model Ledger.Types Ledger.Mid Ledger.Validate Ledger.Apply Ledger.Proofs Ledger.Spends Ledger.VApply.
Import ListNotations.
Open Scope Z_scope.

Lemma Forall_true {A} (l : list A) : Forall (fun _ => True) l.
Proof. induction l; constructor; auto. Qed.

Definition SpentAt (ls : list leaf) (k : nat) : Prop := exists lf, nth_error ls k = Some lf /\ l_spent lf = true.

(* one write of the state update, as to whether leaf [k] is spent: a write to [k] decides it, any other leaves it as it was *)
Lemma write_marks ls (u : Z * leaf) k : (k < length ls)%nat -> fst u <> UNASSIGNED -> Z.to_nat (fst u) = k -> l_spent (snd u) = true ->
  SpentAt (if fst u =? UNASSIGNED then ls else Mid.set_nth (Z.to_nat (fst u)) (snd u) ls) k.
Proof.
  intros Lk Ne Ek Sp. destruct (Z.eqb_spec (fst u) UNASSIGNED); [contradiction|]. exists (snd u). split; [rewrite Ek; apply set_nth_same; exact Lk | exact Sp].
Qed.
Lemma write_keeps ls (u : Z * leaf) k : SpentAt ls k -> (fst u <> UNASSIGNED -> Z.to_nat (fst u) = k -> l_spent (snd u) = true) ->
  SpentAt (if fst u =? UNASSIGNED then ls else Mid.set_nth (Z.to_nat (fst u)) (snd u) ls) k.
Proof.
  intros S0 Hu. destruct (Z.eqb_spec (fst u) UNASSIGNED) as [|Ne]; [exact S0|]. destruct S0 as (lf & N0 & Sp).
  destruct (Nat.eq_dec (Z.to_nat (fst u)) k) as [Ek|Nk].
  - exists (snd u). split; [rewrite Ek; apply set_nth_same, nth_error_Some; congruence | exact (Hu Ne Ek)].
  - exists lf. split; [rewrite set_nth_other by congruence; exact N0 | exact Sp].
Qed.

(* the state update: the last write of a leaf index wins -- if some update of index k marks it spent and no update of k leaves
   it unspent, the leaf ends up spent *)
Lemma apply_leaves_last ups : forall ls k, (k < length ls)%nat ->
  (SpentAt ls k \/ exists u, In u ups /\ fst u <> UNASSIGNED /\ Z.to_nat (fst u) = k /\ l_spent (snd u) = true) ->
  (forall u, In u ups -> fst u <> UNASSIGNED -> Z.to_nat (fst u) = k -> l_spent (snd u) = true) ->
  SpentAt (apply_leaves ls ups) k.
Proof.
  intros ls k Lk Hex Hall. unfold apply_leaves.
  assert (F : SpentAt (fold_left (fun ls u => if fst u =? UNASSIGNED then ls else Mid.set_nth (Z.to_nat (fst u)) (snd u) ls) ups ls) k).
  { revert ls Lk Hex. induction ups as [|u r IH]; intros ls Lk Hex; cbn [fold_left]; [destruct Hex as [S0|(u & [] & _)]; exact S0|].
    apply IH; [intros u' Hin; apply Hall; right; exact Hin | destruct (fst u =? UNASSIGNED); [exact Lk | rewrite set_nth_length; exact Lk]|].
    destruct Hex as [S0|(u' & [<-|Hin] & N' & K' & S')].
    - left. apply write_keeps; [exact S0 | apply Hall; left; reflexivity].
    - left. apply write_marks; assumption.
    - right. exists u'. auto. }
  destruct F as (lf & N0 & Sp). exists lf. split; [|exact Sp]. rewrite nth_error_app1; [exact N0 | apply nth_error_Some; congruence].
Qed.

Lemma apply_leaves_spent ls ups k : SpentAt ls k ->
  (forall u, In u ups -> fst u <> UNASSIGNED -> Z.to_nat (fst u) = k -> l_spent (snd u) = true) ->
  SpentAt (apply_leaves ls ups) k.
Proof. intros S0. apply apply_leaves_last; [destruct S0 as (lf & N0 & _); apply nth_error_Some; congruence | left; exact S0]. Qed.
Lemma unspent_not_spent s k j e : SpentAt (s_leaves s) k -> unspent_at s j e -> Z.to_nat j <> k.
Proof. intros (lf & N0 & Sp) U Ek. unfold unspent_at in U. rewrite Ek, N0 in U. inversion U; subst. discriminate. Qed.

Section Persist.
Variable H : bytes -> bytes.
Variable net : lnetwork.
Variable vt : vtab.
Variable pt : ptab.
Variable se sd : bytes.
Variable s : lstate.
Notation apply_txn2 := (apply_txn2 net).
Notation validate_txn2 := (validate_txn2 H net vt pt se sd).

(* [live_v2 j] is [exists e, unspent_at s j (EV2 e)] *)
Definition live_v2 (j : Z) : Prop := exists e, nth_error (s_leaves s) (Z.to_nat j) = Some {| l_elem := EV2 e; l_spent := false |}.

Definition Psc (d : sced) : Prop := d_sc_leaf d = UNASSIGNED \/ d_sc_spent d = true.
Definition Psf (d : sfed) : Prop := d_sf_leaf d = UNASSIGNED \/ d_sf_spent d = true.
Definition Pv2 (d : v2fced) : Prop := d_v2_leaf d = UNASSIGNED \/ d_v2_res d <> None \/ live_v2 (d_v2_leaf d).
Definition Inv (m : mid) : Prop := Forall Psc (m_sces m) /\ Forall Psf (m_sfes m) /\ m_fces m = [] /\ Forall Pv2 (m_v2fces m).

(* The three slices above are treated for any constraint [Pfc] on the v1 contract diffs: [Inv] is the case that allows none
   (blocks without v1 transactions), Persist1.Inv1 the case of all eras. What [Pfc] must provide is that a diff with an assigned
   leaf marks it spent, unless that leaf is a contract leaf that validation has seen unspent. *)
Section Slices.
Variable Pfc : fced -> Prop.
Hypothesis Pfc_leaf : forall d, Pfc d -> d_fc_leaf d = UNASSIGNED \/ d_fc_resolved d = true \/ exists e, unspent_at s (d_fc_leaf d) (EFC e).
Notation inv := (entries Psc Psf Pfc Pv2).

Lemma create_sce_keeps i o mt : keeps inv (fun m => create_sce m i o mt).
Proof. apply create_sce_entries. left. reflexivity. Qed.
Lemma spend_sce_keeps e lf tx : keeps inv (fun m => spend_sce m e lf tx).
Proof. apply spend_sce_entries. right. reflexivity. Qed.
Lemma create_sfe_keeps i v a : keeps inv (fun m => create_sfe m i v a).
Proof. apply create_sfe_entries. left. reflexivity. Qed.
Lemma spend_sfe_keeps e lf tx : keeps inv (fun m => spend_sfe m e lf tx).
Proof. apply spend_sfe_entries. right. reflexivity. Qed.
Lemma create_v2_keeps i fc : keeps inv (fun m => create_v2 m i fc).
Proof. apply create_v2_entries. left. reflexivity. Qed.
Lemma resolve_v2_keeps e lf kd tx : keeps inv (fun m => resolve_v2 m e lf kd tx).
Proof. apply resolve_v2_entries. right. left. discriminate. Qed.
(* the diff of a revision keeps the leaf it has, or takes the presented one: validation saw that one live *)
Lemma revise_v2_keeps e lf rev : live_v2 lf -> keeps inv (fun m => revise_v2 m e lf rev).
Proof.
  intros Lv. apply revise_v2_entries. intros old [->|Po]; [right; right; exact Lv|].
  destruct (d_v2_created old); [exact Po|]. destruct (d_v2_rev old); [exact Po|].
  right. destruct Po as [_|[Po|_]]; [right; exact Lv | left; exact Po | right; exact Lv].
Qed.

Lemma apply_txn2_keeps_inv t : presented s t -> keeps inv (fun m => apply_txn2 s m t).
Proof.
  intros (_ & _ & P3 & _). rewrite Forall_forall in P3. apply apply_txn2_keeps; intros.
  - apply spend_sce_keeps.
  - apply create_sce_keeps.
  - split; [apply spend_sfe_keeps | intros o; apply create_sce_keeps].
  - apply create_sfe_keeps.
  - apply create_v2_keeps.
  - apply revise_v2_keeps. eexists. apply P3. assumption.
  - split; [intros kd; apply resolve_v2_keeps|]. split; [intros rn _; apply create_v2_keeps|]. split; intros o; apply create_sce_keeps.
  - assumption.
  - assumption.
Qed.

(* an update of an assigned leaf index marks the leaf spent, unless it comes from an unresolved contract diff, which points at
   a live contract leaf *)
Lemma leaf_updates_cases m b u : inv m -> In u (leaf_updates s m b) -> fst u <> UNASSIGNED ->
  l_spent (snd u) = true \/ (exists d e, Pfc d /\ unspent_at s (fst u) (EFC e)) \/
  exists d, In d (m_v2fces m) /\ d_v2_leaf d = fst u /\ d_v2_res d = None /\ live_v2 (fst u).
Proof.
  intros (I1 & I2 & I3 & I4) Hin Ne. unfold leaf_updates in Hin. rewrite Forall_forall in I1, I2, I3, I4.
  rewrite !in_app_iff in Hin. destruct Hin as [Hin|[Hin|[Hin|[Hin|[Hin|Hin]]]]]; try (apply in_map_iff in Hin; destruct Hin as (d & <- & Hd); cbn [fst snd l_spent] in *).
  - destruct (I1 d Hd) as [U|T]; [contradiction | left; exact T].
  - destruct (I2 d Hd) as [U|T]; [contradiction | left; exact T].
  - destruct (Pfc_leaf d (I3 d Hd)) as [U|[T|(e & Lv)]]; [contradiction | left; exact T | right; left; exists d, e; auto].
  - destruct (d_v2_res d) eqn:Rs; [left; reflexivity|]. destruct (I4 d Hd) as [U|[T|Lv]]; [contradiction | contradiction | right; right; exists d; auto].
  - contradiction.
  - destruct Hin as [<-|[]]. contradiction.
Qed.
Lemma leaf_updates_spent m b k : inv m -> SpentAt (s_leaves s) k ->
  forall u, In u (leaf_updates s m b) -> fst u <> UNASSIGNED -> Z.to_nat (fst u) = k -> l_spent (snd u) = true.
Proof.
  intros Im Sk u Hin Ne Ek. destruct (leaf_updates_cases m b u Im Hin Ne) as [T|[(d & e & _ & U)|(d & _ & _ & _ & e & U)]]; [exact T | |];
    destruct (unspent_not_spent s k _ _ Sk U Ek).
Qed.

Lemma spent_persist_slices b s' m : validate_block H net vt pt se sd s b = Ok tt -> apply_block net s b = Ok (s', m) ->
  keeps inv (fun m => apply_txns1 net s m (b_txns b) (b_supp b)) ->
  (forall pe, In pe (b_expiring b) -> keeps inv (fun m => resolve_fce m (p_val (fst pe)) (p_leaf (fst pe)) false (b_id b))) ->
  forall k, SpentAt (s_leaves s) k -> SpentAt (s_leaves s') k.
Proof.
  intros V A K1 Kx k Sk. rewrite (proj2 (apply_block_ok net s b s' m A)). apply apply_leaves_spent; [exact Sk|]. apply leaf_updates_spent; [|exact Sk].
  apply (accepted_block_keeps H net vt pt se sd inv s b s' m V A (entries_new _ _ _ _ s) K1).
  - intros t _. apply apply_txn2_keeps_inv.
  - apply block_tail_keeps; [intros; apply create_sce_keeps | intros; apply create_sce_keeps|].
    intros pe Hpe. split; [exact (Kx pe Hpe) | intros; apply create_sce_keeps].
Qed.
End Slices.

Notation inv0 := (entries Psc Psf (fun _ => False) Pv2).
Lemma inv_entries m : Inv m <-> inv0 m.
Proof.
  unfold Inv, entries. split; intros (I1 & I2 & I3 & I4); repeat split; try assumption.
  - rewrite I3. constructor.
  - destruct (m_fces m) as [|d r]; [reflexivity | destruct (Forall_inv I3)].
Qed.
Lemma inv_new : Inv (new_mid s).
Proof. apply inv_entries, entries_new. Qed.
Lemma keeps_inv f : keeps inv0 f -> keeps Inv f.
Proof. intros K m m' E Im. apply inv_entries. apply (K m m' E). apply inv_entries. exact Im. Qed.

Lemma revise_v2_inv m e lf rev m' : live_v2 lf -> revise_v2 m e lf rev = Ok m' -> Inv m -> Inv m'.
Proof. intros Lv. apply (keeps_inv _ (revise_v2_keeps _ e lf rev Lv)). Qed.
Lemma create_sce_inv m i o mt m' : create_sce m i o mt = Ok m' -> Inv m -> Inv m'.
Proof. apply (keeps_inv _ (create_sce_keeps _ i o mt)). Qed.
Lemma create_att_inv m i : Inv m -> Inv (create_att m i).
Proof. intros I. exact I. Qed.
Lemma with_foundation_inv m a b : Inv m -> Inv (with_foundation m a b).
Proof. intros I. exact I. Qed.

(* validating and applying the v2 transactions of a block one after the other reaches the MidState that applying them
   alone reaches, and keeps the invariant *)
Lemma block_inv txns : forall m m', fold_r (vstep H net vt pt se sd s) txns m = Ok m' -> Inv m ->
  fold_r (apply_txn2 s) txns m = Ok m' /\ Inv m'.
Proof.
  intros m m' E Im. pose proof (vstep_presented H net vt pt se sd _ _ _ _ E) as Ps. rewrite Forall_forall in Ps.
  apply validate_txns2_applies in E. split; [exact E|]. revert m m' E Im. apply keeps_inv, keeps_fold. intros t Ht.
  apply apply_txn2_keeps_inv. exact (Ps t Ht).
Qed.

Lemma accepted_inv b s' m : validate_block H net vt pt se sd s b = Ok tt -> apply_block net s b = Ok (s', m) ->
  b_txns b = [] -> b_expiring b = [] -> Inv m.
Proof.
  intros V A T0 X0. apply (accepted_v2_block_keeps H net vt pt se sd Inv s b s' m V A T0 X0 inv_new).
  - intros t _ P. apply keeps_inv, apply_txn2_keeps_inv, P.
  - intros i o mt _ m0 m0'. apply create_sce_inv.
Qed.

(* an accepted block without v1 transactions and without expiring v1 contracts (every block from the height at which v2
   is required) leaves every spent leaf spent *)
Theorem spent_persist b s' m : validate_block H net vt pt se sd s b = Ok tt -> apply_block net s b = Ok (s', m) ->
  b_txns b = [] -> b_expiring b = [] -> forall k, SpentAt (s_leaves s) k -> SpentAt (s_leaves s') k.
Proof.
  intros V A T0 X0. apply (spent_persist_slices (fun _ => False) ltac:(intros ? []) b s' m V A).
  - rewrite T0. apply apply_txns1_nil_keeps.
  - rewrite X0. intros ? [].
Qed.
End Persist.

(* from the height at which v2 is required, every accepted and applied block is of that kind *)
Lemma era_v2_only (H : bytes -> bytes) net vt pt se sd s b s' m :
  validate_block H net vt pt se sd s b = Ok tt -> apply_block net s b = Ok (s', m) -> ln_v2_require net <= child s ->
  b_txns b = [] /\ b_expiring b = [].
Proof.
  intros V _ Rq. destruct (validate_block_ok H net vt pt se sd s b V) as (_ & Vs & _). destruct (validate_supplement_ok net s b Vs) as (G & L & _).
  destruct (Z.leb_spec (ln_v2_require net) (child s)); [|lia]. cbn [andb] in G. apply orb_false_elim in G. destruct G as [G1 G2]. split.
  - destruct (b_txns b); [reflexivity|]. destruct (b_supp b); discriminate.
  - destruct (b_expiring b); [reflexivity | discriminate].
Qed.

Section Chain.
Variable H : bytes -> bytes.
Variable net : lnetwork.
Variable vt : vtab.
Variable pt : ptab.
Variable se sd : bytes.

Inductive chain : lstate -> list lblock -> lstate -> Prop :=
| chain_nil s : chain s [] s
| chain_cons s b s1 m bs s' : validate_block H net vt pt se sd s b = Ok tt -> apply_block net s b = Ok (s1, m) ->
    b_txns b = [] -> b_expiring b = [] -> chain s1 bs s' -> chain s (b :: bs) s'.

Theorem chain_spent_persist s bs s' : chain s bs s' -> forall k, SpentAt (s_leaves s) k -> SpentAt (s_leaves s') k.
Proof.
  induction 1 as [|s b s1 m bs s' V A T X C IH]; intros k Sk; [exact Sk|]. apply IH. eapply spent_persist; eassumption.
Qed.

Lemma spent_not_presented s k t : SpentAt (s_leaves s) k -> presented s t ->
  (forall i, In i (t2_sci t) -> p_leaf (i2_parent i) <> UNASSIGNED -> Z.to_nat (p_leaf (i2_parent i)) <> k) /\
  (forall i, In i (t2_sfi t) -> p_leaf (f2_parent i) <> UNASSIGNED -> Z.to_nat (p_leaf (f2_parent i)) <> k) /\
  (forall rv, In rv (t2_rev t) -> Z.to_nat (p_leaf (r2_parent rv)) <> k) /\
  (forall rs, In rs (t2_res t) -> Z.to_nat (p_leaf (rs_parent rs)) <> k).
Proof.
  intros Sk (F1 & F2 & F3 & F4). rewrite Forall_forall in F1, F2, F3, F4. pose proof (unspent_not_spent s k) as Live. specialize (fun j e => Live j e Sk).
  repeat split.
  - intros i Hi Ne. destruct (F1 i Hi) as [|U]; [contradiction | exact (Live _ _ U)].
  - intros i Hi Ne. destruct (F2 i Hi) as [|U]; [contradiction | exact (Live _ _ U)].
  - intros rv Hr. exact (Live _ _ (F3 rv Hr)).
  - intros rs Hr. exact (Live _ _ (F4 rs Hr)).
Qed.

(* a leaf marked spent at some point of an accepted chain is refused by every later block as the parent of a siacoin input,
   siafund input, revision or resolution *)
Theorem chain_no_reuse s bs s' k : chain s bs s' -> SpentAt (s_leaves s) k ->
  forall m t, validate_txn2 H net vt pt se sd s' m t = Ok tt ->
  (forall i, In i (t2_sci t) -> p_leaf (i2_parent i) <> UNASSIGNED -> Z.to_nat (p_leaf (i2_parent i)) <> k) /\
  (forall i, In i (t2_sfi t) -> p_leaf (f2_parent i) <> UNASSIGNED -> Z.to_nat (p_leaf (f2_parent i)) <> k) /\
  (forall rv, In rv (t2_rev t) -> Z.to_nat (p_leaf (r2_parent rv)) <> k) /\
  (forall rs, In rs (t2_res t) -> Z.to_nat (p_leaf (rs_parent rs)) <> k).
Proof. intros C Sk m t V. exact (spent_not_presented s' k t (chain_spent_persist _ _ _ C k Sk) (validate_presented H net vt pt se sd s' m t V)). Qed.

Theorem chain_no_respend s bs s' k : chain s bs s' -> SpentAt (s_leaves s) k ->
  forall m t, validate_txn2 H net vt pt se sd s' m t = Ok tt ->
  forall i, In i (t2_sci t) -> p_leaf (i2_parent i) <> UNASSIGNED -> Z.to_nat (p_leaf (i2_parent i)) <> k.
Proof. intros C Sk m t V. exact (proj1 (chain_no_reuse s bs s' k C Sk m t V)). Qed.
Theorem chain_no_rerevise s bs s' k : chain s bs s' -> SpentAt (s_leaves s) k ->
  forall m t, validate_txn2 H net vt pt se sd s' m t = Ok tt ->
  (forall rv, In rv (t2_rev t) -> Z.to_nat (p_leaf (r2_parent rv)) <> k) /\
  (forall rs, In rs (t2_res t) -> Z.to_nat (p_leaf (rs_parent rs)) <> k).
Proof. intros C Sk m t V. exact (proj2 (proj2 (chain_no_reuse s bs s' k C Sk m t V))). Qed.
Theorem chain_no_respend_sf s bs s' k : chain s bs s' -> SpentAt (s_leaves s) k ->
  forall m t, validate_txn2 H net vt pt se sd s' m t = Ok tt ->
  forall i, In i (t2_sfi t) -> p_leaf (f2_parent i) <> UNASSIGNED -> Z.to_nat (p_leaf (f2_parent i)) <> k.
Proof. intros C Sk m t V. exact (proj1 (proj2 (chain_no_reuse s bs s' k C Sk m t V))). Qed.
End Chain.

(* the premises are satisfiable: a state at height 10 with one spent siacoin leaf, extended by an empty v2 block *)
Example chain_nonvacuous :
  let net := {| ln_v2_allow := 0; ln_v2_require := 0; ln_v2_final := 0; ln_v2_ephemeral := 0; ln_maturity_delay := 144; ln_tax_height := 0;
                ln_sp_height := 0; ln_foundation_height := 0; ln_devaddr_height := 0; ln_devaddr_old := []; ln_devaddr_new := [];
                ln_initial_coinbase := 300000 * 10 ^ 24; ln_min_coinbase := 30000 * 10 ^ 24; ln_blocks_per_month := 4380; ln_blocks_per_year := 52560 |} in
  let e := {| sce_id := [1%N]; sce_out := {| sco_value := 5; sco_addr := [] |}; sce_maturity := 0 |} in
  let s := {| s_height := 10; s_index_id := []; s_pool := 0; s_found_subsidy := void_addr; s_found_mgmt := void_addr; s_median := 0;
              s_leaves := [{| l_elem := ESC e; l_spent := true |}] |} in
  let b := {| b_id := [7%N]; b_is_v2 := true; b_v2_height := 11; b_commit_ok := true; b_header_code := 0;
              b_payouts := [([9%N], {| sco_value := 300000 * 10 ^ 24 - 11 * 10 ^ 24; sco_addr := [] |})]; b_foundation_id := [8%N];
              b_txns := []; b_v2txns := []; b_supp := []; b_expiring := []; b_next_median := 0 |} in
  exists s', chain (fun x => x) net [] [] [] [] s [b] s' /\ SpentAt (s_leaves s) 0 /\ SpentAt (s_leaves s') 0 /\ length (s_leaves s') = 3%nat.
Proof.
  cbv zeta. eexists. split; [|split; [|split]].
  - eapply chain_cons; [vm_compute; reflexivity | vm_compute; reflexivity | reflexivity | reflexivity | apply chain_nil].
  - eexists. split; reflexivity.
  - eexists. split; reflexivity.
  - reflexivity.
Qed.
