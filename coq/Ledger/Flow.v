(* C01, siacoins. An accepted v2 transaction (consensus/validation.go validateV2Siacoins + validateV2FileContracts): what is
   spent and what its resolutions release equals what is created, locked in new and renewed contracts, taxed, paid as fee,
   paid out by the resolutions and forfeited. An accepted v1 transaction (validateSiacoins): what is spent equals the new
   outputs, the contract payouts and the fees. *)
From Coq Require Import ZArith List Bool Lia.
From Sia Require Import Prim.Result Prim.Tok Policy.Model Ledger.Types Ledger.Mid Ledger.Validate Ledger.Proofs Ledger.Auth.
Import ListNotations.
Open Scope Z_scope.

Section Flow.
Variable H : bytes -> bytes.
Variable net : lnetwork.
Variable vt : vtab.
Variable pt : ptab.
Variable se sd : bytes.
Notation validate_v2_siacoins := (validate_v2_siacoins H net vt pt se sd).
Notation check_resolutions := (check_resolutions H vt).
Notation validate_resolution := (validate_resolution H vt).

Definition zsum (l : list Z) : Z := fold_right Z.add 0 l.
Definition locked (fc : fc2) : Z := sco_value (c_renter fc) + sco_value (c_host fc).
Definition tax_of (fc : fc2) : Z := locked fc / 25.

Definition sum_sci (t : txn2) : Z := zsum (map (fun i => sco_value (sce_out (p_val (i2_parent i)))) (t2_sci t)).
Definition sum_sco (t : txn2) : Z := zsum (map (fun x => sco_value (snd x)) (t2_sco t)).
Definition sum_fc (t : txn2) : Z := zsum (map (fun x => locked (snd x) + tax_of (snd x)) (t2_fc t)).
Definition released (rs : res2) : Z := locked (v2_fc (p_val (rs_parent rs))).
Definition paid_out (rs : res2) : Z :=
  let fc := v2_fc (p_val (rs_parent rs)) in
  match rs_res rs with
  | RRenewal rn => sco_value (rn_final_renter rn) + sco_value (rn_final_host rn)
  | RProof _ => locked fc
  | RExpiration => sco_value (c_renter fc) + c_missed_host fc
  end.
Definition relocked (rs : res2) : Z :=
  match rs_res rs with RRenewal rn => locked (rn_new rn) + tax_of (rn_new rn) | _ => 0 end.
Definition rolled (rs : res2) : Z :=
  match rs_res rs with RRenewal rn => rn_renter_rollover rn + rn_host_rollover rn | _ => 0 end.
(* the host value a missed contract does not pay out (negative exactly when the missed value exceeds the host value) *)
Definition forfeited (rs : res2) : Z :=
  let fc := v2_fc (p_val (rs_parent rs)) in
  match rs_res rs with RExpiration => sco_value (c_host fc) - c_missed_host fc | _ => 0 end.

Lemma tax_ok fc tx : v2_tax fc = Ok tx -> tx = tax_of fc.
Proof. unfold v2_tax, tax_of, locked. intros E. apply bind_ok in E as (sum & Sum & E). apply cadd_ok in Sum. destruct Sum as [-> _]. apply cdiv64_ok in E. exact (proj1 E). Qed.
(* the four checked steps by which [out_fc] and [io_res] add a contract to a running sum *)
Lemma add_locked_ok fc acc {B} (k : Z -> R B) r :
  (do a <- cadd acc (sco_value (c_renter fc)); do b <- cadd a (sco_value (c_host fc)); do tx <- v2_tax fc; do c <- cadd b tx; k c) = Ok r ->
  k (acc + locked fc + tax_of fc) = Ok r.
Proof.
  intros E. apply bind_ok in E as (a & Ea & E). apply bind_ok in E as (b & Eb & E). apply bind_ok in E as (tx & Tx & E). apply bind_ok in E as (c & Ec & E).
  apply cadd_ok in Ea, Eb, Ec. apply tax_ok in Tx. destruct Ea as [-> _], Eb as [-> _], Ec as [-> _]. subst tx.
  replace (acc + locked fc + tax_of fc) with (acc + sco_value (c_renter fc) + sco_value (c_host fc) + tax_of fc) by (unfold locked; lia). exact E.
Qed.

(* [zsum] here and in Proofs are the same function *)
Lemma csum_ok l acc r : csum l acc = Ok r -> r = acc + zsum l.
Proof. exact (Proofs.csum_ok l acc r). Qed.
Lemma out_sco_ok l : forall acc r, out_sco l acc = Ok r -> r = acc + zsum (map (fun x => sco_value (snd x)) l).
Proof.
  induction l as [|[i o] l IH]; intros acc r E; cbn [out_sco map zsum fold_right snd] in *; [inversion E; lia|].
  destruct (sco_value o =? 0); [discriminate|]. apply bind_ok in E as (a & Ea & E). apply cadd_ok in Ea. destruct Ea as [-> _]. apply IH in E. unfold zsum in E. lia.
Qed.
Lemma out_fc_ok l : forall acc r, out_fc l acc = Ok r -> r = acc + zsum (map (fun x => locked (snd x) + tax_of (snd x)) l).
Proof.
  induction l as [|[i fc] l IH]; intros acc r E; cbn [out_fc map zsum fold_right snd] in *; [inversion E; lia|].
  apply add_locked_ok, IH in E. unfold zsum in E. lia.
Qed.
Lemma io_res_ok l : forall io r, io_res l io = Ok r ->
  fst r = fst io + zsum (map rolled l) /\ snd r = snd io + zsum (map relocked l).
Proof.
  induction l as [|rs l IH]; intros io r E; cbn [io_res map zsum fold_right] in *; [inversion E; lia|].
  unfold rolled at 1, relocked at 1. destruct (rs_res rs) as [rn|sp|]; [|exact (IH _ _ E)..].
  apply bind_ok in E as (i1 & I1 & E). apply bind_ok in E as (i2 & I2 & E). apply cadd_ok in I1, I2. apply add_locked_ok, IH in E.
  cbn [fst snd] in E. unfold zsum in E. lia.
Qed.

(* what validateV2Siacoins' final comparison says *)
Lemma siacoins_balance s m t : validate_v2_siacoins s m t = Ok tt ->
  sum_sci t + zsum (map rolled (t2_res t)) = sum_sco t + sum_fc t + zsum (map relocked (t2_res t)) + t2_fee t.
Proof.
  intros E. unfold Validate.validate_v2_siacoins in E. apply bind_ok in E as (_ & _ & E).
  apply bind_ok in E as (insum & In & E). apply bind_ok in E as (out1 & Out1 & E). apply bind_ok in E as (out2 & Out2 & E).
  apply bind_ok in E as (io & Io & E). apply bind_ok in E as (due & Due & E). destruct (Z.eqb_spec (fst io) due) as [Q|]; [|discriminate].
  apply csum_ok in In. apply out_sco_ok in Out1. apply out_fc_ok in Out2. apply io_res_ok in Io. apply cadd_ok in Due.
  cbn [fst snd] in Io. unfold sum_sci, sum_sco, sum_fc. lia.
Qed.

Lemma resolution_split s rs : validate_resolution s rs = Ok tt -> released rs = paid_out rs + rolled rs + forfeited rs.
Proof.
  unfold Validate.validate_resolution, released, paid_out, rolled, forfeited, locked. intros E.
  destruct (rs_res rs) as [rn|sp|]; [apply renewal_authorised in E|..]; lia.
Qed.

Theorem v2_value_flow s m t revised resolved :
  validate_v2_siacoins s m t = Ok tt -> check_resolutions s m revised (t2_res t) resolved = Ok tt ->
  sum_sci t + zsum (map released (t2_res t)) =
  sum_sco t + sum_fc t + zsum (map relocked (t2_res t)) + t2_fee t + zsum (map paid_out (t2_res t)) + zsum (map forfeited (t2_res t)).
Proof.
  intros E1 E2. pose proof (siacoins_balance s m t E1) as Bal. apply check_resolutions_ok in E2. destruct E2 as [F _].
  assert (Sp : zsum (map released (t2_res t)) = zsum (map paid_out (t2_res t)) + zsum (map rolled (t2_res t)) + zsum (map forfeited (t2_res t))).
  { clear - F. induction F as [|rs l (_ & _ & Hrs) _ IH]; [reflexivity|]. cbn [map zsum fold_right]. apply resolution_split in Hrs. unfold zsum in IH. lia. }
  lia.
Qed.
End Flow.

(* v1 transactions (validateSiacoins): the values of the outputs an accepted transaction spends, as validation
   resolves them (from the block's own earlier transactions or from the supplement), equal its new outputs, the
   payouts of the contracts it forms, and its miner fees *)
Section FlowV1.
Definition spent_value (m : mid) (ts : supp1) (i : sci1) : Z :=
  match sc_element m ts (i1_parent i) with Some (p, _) => sco_value (sce_out p) | None => 0 end.

Lemma out_fees_ok l : forall acc r, out_fees l acc = Ok r -> r = acc + zsum l.
Proof.
  induction l as [|f l IH]; intros acc r E; cbn [out_fees zsum fold_right] in *; [inversion E; lia|].
  destruct (C128 <=? acc + f); [discriminate|]. apply IH in E. unfold zsum in E. lia.
Qed.

Theorem v1_value_flow s m t ts : validate_siacoins s m t ts = Ok tt ->
  zsum (map (spent_value m ts) (t1_sci t)) =
  zsum (map (fun x => sco_value (snd x)) (t1_sco t)) + zsum (map (fun x => fc_payout (snd (fst x))) (t1_fc t)) + zsum (t1_fees t).
Proof.
  unfold validate_siacoins. intros E. apply bind_ok in E as (insum & In & E).
  apply bind_ok in E as (o1 & O1 & E). apply bind_ok in E as (o2 & O2 & E). apply bind_ok in E as (o3 & O3 & E).
  destruct (Z.eqb_spec insum o3) as [Q|]; [|discriminate].
  apply in_sci1_ok in In. destruct In as [_ In]. change (insum = 0 + zsum (map (spent_value m ts) (t1_sci t))) in In.
  apply csum_ok in O1. apply csum_ok in O2. apply out_fees_ok in O3. lia.
Qed.
End FlowV1.
