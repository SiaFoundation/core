(* C02: [fresh_gen], the check on a block that nothing is created under the ID of a consumed element and that parents with one
   ID present one leaf; with it, the hypotheses of the marking theorems for siafund elements and resolved v2 contracts as
   decidable checks of the block (Fresh.v does the same for siacoin elements). *)
From Coq Require Import ZArith List Bool Lia.
From Sia Require Import Prim.Result Prim.Tok Policy.Model Ledger.Types Ledger.Mid Ledger.Validate Ledger.Apply Ledger.Proofs Ledger.Persist Ledger.Marks1 Ledger.Marks5 Ledger.Marks6 Ledger.Marks8 Ledger.Marks9 Ledger.Marks10 Ledger.Wk2 Ledger.Kinds.
Import ListNotations.
Open Scope Z_scope.

(* for every parent of [ps] with an assigned leaf: nothing is created under its ID, and every parent of [qs] with the same ID
   presents the same leaf *)
Definition fresh_gen (ps qs : list (id * Z)) (created : list id) : bool :=
  forallb (fun p => (snd p =? UNASSIGNED) ||
                    (negb (existsb (beq (fst p)) created) &&
                     forallb (fun q => negb (beq (fst q) (fst p)) || (snd q =? snd p)) qs)) ps.
Lemma fresh_gen_spec ps qs created i lf : fresh_gen ps qs created = true -> In (i, lf) ps -> lf <> UNASSIGNED ->
  (forall c, In c created -> c <> i) /\ (forall j l, In (j, l) qs -> j = i -> l = lf).
Proof.
  intros F Hp Nun. unfold fresh_gen in F. rewrite forallb_forall in F. specialize (F _ Hp). cbn [fst snd] in F.
  destruct (Z.eqb_spec lf UNASSIGNED); [contradiction|]. cbn [orb] in F. apply andb_true_iff in F. destruct F as [F1 F2]. split.
  - intros c Hc E. apply negb_true_iff in F1.
    assert (X : existsb (beq i) created = true) by (apply existsb_exists; exists c; split; [exact Hc | rewrite E; apply beq_refl]). congruence.
  - intros j l Hq E. rewrite forallb_forall in F2. specialize (F2 _ Hq). cbn [fst snd] in F2. rewrite E, beq_refl in F2. cbn in F2. apply Z.eqb_eq. exact F2.
Qed.

Lemma fresh_gen_txn {T} (pa : T -> list (id * Z)) (cr : T -> list id) (txs : list T) ps created i lf t :
  fresh_gen ps (flat_map pa txs) created = true -> In (i, lf) ps -> lf <> UNASSIGNED -> In t txs -> incl (flat_map cr txs) created ->
  Forall (fun c => c <> i) (cr t) /\ Forall (fun q => fst q = i -> snd q = lf) (pa t).
Proof.
  intros F Hp Nun Ht Inc. destruct (fresh_gen_spec _ _ _ _ _ F Hp Nun) as [Cr Sm]. split; apply Forall_forall.
  - intros c Hc. apply Cr, Inc, in_flat_map. exists t. split; assumption.
  - intros [j l] Hq. apply Sm, in_flat_map. exists t. split; assumption.
Qed.

Definition sf_created2 (t : txn2) : list id := map (fun x : id * (Z * bytes) => fst x) (t2_sfo t).
Definition sf_createdB (b : lblock) : list id := flat_map sf_created2 (b_v2txns b).
Definition sf_parents2 (t : txn2) : list (id * Z) := map (fun i => (sfe_id (p_val (f2_parent i)), p_leaf (f2_parent i))) (t2_sfi t).
Definition sf_parentsB (b : lblock) : list (id * Z) := flat_map sf_parents2 (b_v2txns b).
Definition fresh_sf (b : lblock) : bool := fresh_gen (sf_parentsB b) (sf_parentsB b) (sf_createdB b).

Definition v2_created2 (t : txn2) : list id :=
  map (fun x : id * fc2 => fst x) (t2_fc t) ++ flat_map (fun rs => match rs_res rs with RRenewal rn => [rn_new_id rn] | _ => [] end) (t2_res t).
Definition v2_createdB (b : lblock) : list id := flat_map v2_created2 (b_v2txns b).
Definition v2_res_parents2 (t : txn2) : list (id * Z) := map (fun rs => (v2_id (p_val (rs_parent rs)), p_leaf (rs_parent rs))) (t2_res t).
Definition v2_rev_parents2 (t : txn2) : list (id * Z) := map (fun rv => (v2_id (p_val (r2_parent rv)), p_leaf (r2_parent rv))) (t2_rev t).
Definition v2_res_parentsB (b : lblock) : list (id * Z) := flat_map v2_res_parents2 (b_v2txns b).
Definition v2_all_parentsB (b : lblock) : list (id * Z) := flat_map (fun t => v2_rev_parents2 t ++ v2_res_parents2 t) (b_v2txns b).
Definition fresh_v2 (b : lblock) : bool := fresh_gen (v2_res_parentsB b) (v2_all_parentsB b) (v2_createdB b).

Section FreshSF.
Variable b : lblock.
Hypothesis C : consistent (declsB b) = true.
Hypothesis F : fresh_sf b = true.
Notation kf := (kind_from (declsB b)).
Variables (t0 : txn2) (i0 : sfi2).
Hypothesis Ht0 : In t0 (b_v2txns b).
Hypothesis Hi0 : In i0 (t2_sfi t0).
Notation id0 := (sfe_id (p_val (f2_parent i0))).
Notation lf0 := (p_leaf (f2_parent i0)).
Hypothesis Nun : lf0 <> UNASSIGNED.

Lemma sf_parent0 : In (id0, lf0) (sf_parentsB b).
Proof. apply in_flat_map. exists t0. split; [exact Ht0 | exact (in_map (fun i => (sfe_id (p_val (f2_parent i)), p_leaf (f2_parent i))) _ _ Hi0)]. Qed.
Lemma sf_kind0 : kf id0 = KSF.
Proof. destruct (kinds2 b C t0 Ht0) as (_ & _ & K3 & _). rewrite Forall_forall in K3. exact (proj1 (K3 i0 Hi0)). Qed.
Lemma sf_txok t : In t (b_v2txns b) -> Marks6.TxOK kf id0 lf0 t.
Proof.
  intros Ht. destruct (kinds2 b C t Ht) as (K1 & K2 & K3 & K4 & K5 & K6 & K7 & K8).
  destruct (fresh_gen_txn sf_parents2 sf_created2 _ _ _ _ _ t F sf_parent0 Nun Ht (incl_refl _)) as [Ct St].
  unfold sf_created2 in Ct. unfold sf_parents2 in St. rewrite Forall_map in Ct, St.
  unfold Marks6.TxOK. repeat split; try assumption; [|exact (Forall_and K4 Ct)].
  rewrite Forall_forall in *. intros i Hi. destruct (K3 i Hi) as [A B]. split; [exact A|]. split; [exact (St i Hi) | exact B].
Qed.
End FreshSF.

Theorem consumed_sf_marked_checked H net vt pt se sd s b s' m t0 i0 :
  validate_block H net vt pt se sd s b = Ok tt -> apply_block net s b = Ok (s', m) -> b_txns b = [] -> b_expiring b = [] ->
  consistent (declsB b) = true -> fresh_sf b = true ->
  In t0 (b_v2txns b) -> In i0 (t2_sfi t0) -> p_leaf (f2_parent i0) <> UNASSIGNED ->
  SpentAt (s_leaves s') (Z.to_nat (p_leaf (f2_parent i0))).
Proof.
  intros V A T0 X0 C F Ht0 Hi0 Nun. destruct (consistent_kinds b C) as (_ & _ & Kp & Kf & _).
  apply (consumed_sf_leaf_marked H net vt pt se sd s (kind_from (declsB b)) (sfe_id (p_val (f2_parent i0))) (p_leaf (f2_parent i0))
           (sf_kind0 b C t0 i0 Ht0 Hi0) b s' m t0 i0 V A T0 X0); try assumption; try reflexivity.
  apply Forall_forall. intros t Ht. exact (sf_txok b C F t0 i0 Ht0 Hi0 Nun t Ht).
Qed.

Section FreshV2.
Variable b : lblock.
Hypothesis C : consistent (declsB b) = true.
Hypothesis F : fresh_v2 b = true.
Notation kf := (kind_from (declsB b)).
Variables (t0 : txn2) (rs0 : res2).
Hypothesis Ht0 : In t0 (b_v2txns b).
Hypothesis Hi0 : In rs0 (t2_res t0).
Notation id0 := (v2_id (p_val (rs_parent rs0))).
Notation lf0 := (p_leaf (rs_parent rs0)).
Hypothesis Nun : lf0 <> UNASSIGNED.

Lemma v2_parent0 : In (id0, lf0) (v2_res_parentsB b).
Proof. apply in_flat_map. exists t0. split; [exact Ht0 | exact (in_map (fun rs => (v2_id (p_val (rs_parent rs)), p_leaf (rs_parent rs))) _ _ Hi0)]. Qed.
Lemma v2_kind0 : kf id0 = KV2.
Proof. destruct (kinds2 b C t0 Ht0) as (_ & _ & _ & _ & _ & _ & K7 & _). rewrite Forall_forall in K7. exact (proj1 (K7 rs0 Hi0)). Qed.
Lemma v2_txok t : In t (b_v2txns b) -> Marks9.TxOK kf id0 lf0 t.
Proof.
  intros Ht. destruct (kinds2 b C t Ht) as (K1 & K2 & K3 & K4 & K5 & K6 & K7 & K8).
  destruct (fresh_gen_txn (fun t => v2_rev_parents2 t ++ v2_res_parents2 t) v2_created2 _ _ _ _ _ t F v2_parent0 Nun Ht (incl_refl _)) as [Ct St].
  unfold v2_created2 in Ct. rewrite Forall_app, Forall_map, Forall_flat_map in Ct. destruct Ct as [C5 C7].
  unfold v2_rev_parents2, v2_res_parents2 in St. rewrite Forall_app, !Forall_map in St. destruct St as [S6 S7].
  unfold Marks9.TxOK. repeat split; try assumption.
  - exact (Forall_and K5 C5).
  - exact (Forall_and K6 S6).
  - rewrite Forall_forall in *. intros rs Hrs. destruct (K7 rs Hrs) as (A & B & D & E). split; [exact A|]. split; [exact (S7 rs Hrs)|]. split; [exact B|]. split; [exact D|].
    intros rn Er. split; [exact (E rn Er)|]. specialize (C7 rs Hrs). rewrite Er in C7. inversion C7. assumption.
Qed.
End FreshV2.

Theorem resolved_marked_checked H net vt pt se sd s b s' m t0 rs0 :
  validate_block H net vt pt se sd s b = Ok tt -> apply_block net s b = Ok (s', m) -> b_txns b = [] -> b_expiring b = [] ->
  consistent (declsB b) = true -> fresh_v2 b = true ->
  In t0 (b_v2txns b) -> In rs0 (t2_res t0) -> p_leaf (rs_parent rs0) <> UNASSIGNED ->
  SpentAt (s_leaves s') (Z.to_nat (p_leaf (rs_parent rs0))).
Proof.
  intros V A T0 X0 C F Ht0 Hi0 Nun. destruct (consistent_kinds b C) as (_ & _ & Kp & Kf & _).
  apply (resolved_leaf_marked H net vt pt se sd s (kind_from (declsB b)) (v2_id (p_val (rs_parent rs0))) (p_leaf (rs_parent rs0))
           (v2_kind0 b C t0 rs0 Ht0 Hi0) b s' m t0 rs0 V A T0 X0); try assumption; try reflexivity.
  apply Forall_forall. intros t Ht. exact (v2_txok b C F t0 rs0 Ht0 Hi0 Nun t Ht).
Qed.
Print Assumptions consumed_sf_marked_checked.
Print Assumptions resolved_marked_checked.
