(* What validation guarantees about the authorisation of a v1 transaction: each siacoin input (C03, C08) and
   validateSignatures (C03). *)
From Coq Require Import ZArith List Bool Lia.
From Sia Require Import Prim.Result Prim.Tok Policy.Model Ledger.Types Ledger.Mid Ledger.Validate Ledger.Apply Ledger.Proofs.
Import ListNotations.
Open Scope Z_scope.

Section V1Sigs.
Variable H : bytes -> bytes.
Variable net : lnetwork.
Variable vt : vtab.
Variable se sd : bytes.

Theorem v1_inputs_gated s m t ts : validate_txn1 H net vt se sd s m t ts = Ok tt ->
  Forall (fun i => i1_timelock i <= child s /\ is_spent m (i1_parent i) = false /\
                   exists p lf, sc_element m ts (i1_parent i) = Some (p, lf) /\ i1_uh i = sco_addr (sce_out p) /\ sce_maturity p <= child s) (t1_sci t).
Proof.
  intros V. destruct (validate_txn1_ok H net vt se sd s m t ts V) as (_ & Vsc & _).
  unfold validate_siacoins in Vsc. apply bind_ok in Vsc. destruct Vsc as (insum & L & _). exact (proj1 (in_sci1_ok s m ts _ _ _ L)).
Qed.

(* the loop of validateSignatures under a name, convertible with the anonymous one of Validate.v *)
Section Loop.
Variable s : lstate.
Fixpoint sig_loop (l : list sig1) (m : list sigent) : R (list sigent) :=
  match l with
  | [] => Ok m
  | g :: r =>
    match find (fun e => beq (se_id e) (g_parent g)) m with
    | None => err 61
    | Some e =>
      if Z.of_nat (length (se_keys e)) <=? g_keyidx g then err 62
      else if (se_need e =? 0) || nth (Z.to_nat (g_keyidx g)) (se_used e) false then err 63
      else if child s <? g_timelock g then err 64
      else if negb (g_covered_ok g) then err 65
      else
        let m' := upd_ent m (g_parent g) (fun e => {| se_id := se_id e; se_need := (se_need e - 1) mod 2 ^ 64; se_keys := se_keys e;
                                                      se_used := set_nth (Z.to_nat (g_keyidx g)) true (se_used e) |}) in
        let '(alg, key) := nth (Z.to_nat (g_keyidx g)) (se_keys e) ([], []) in
        if beq alg sd then
          if vlookup vt (key32 key) (g_sighash g) (sig64 (g_sig g)) then sig_loop r m' else err 66
        else if beq alg se then err 67
        else sig_loop r m'
    end
  end.
End Loop.

(* the static part of the table: which parents are listed, with which keys *)
Definition statics (m : list sigent) : list (id * list (bytes * bytes)) := map (fun e => (se_id e, se_keys e)) m.
Lemma upd_ent_statics m i f : (forall e, se_id (f e) = se_id e /\ se_keys (f e) = se_keys e) -> statics (upd_ent m i f) = statics m.
Proof.
  intros Hf. induction m as [|e r IH]; [reflexivity|]. cbn [upd_ent]. destruct (beq (se_id e) i); cbn [statics map].
  - destruct (Hf e) as [A B]. rewrite A, B. reflexivity.
  - fold (statics (upd_ent r i f)). fold (statics r). rewrite IH. reflexivity.
Qed.
Lemma find_statics m i e : find (fun e => beq (se_id e) i) m = Some e -> In (i, se_keys e) (statics m).
Proof.
  intros F. apply find_some in F. destruct F as [Hin B]. apply beq_eq in B. subst i.
  unfold statics. apply in_map_iff. exists e. split; [reflexivity | exact Hin].
Qed.

(* every signature of an accepted v1 transaction names a listed parent and one of its keys, respects its own timelock,
   covers existing fields, and -- when the key is an ed25519 key -- verifies under that key; entropy keys never sign *)
Definition sig_ok (s : lstate) (st : list (id * list (bytes * bytes))) (g : sig1) : Prop :=
  exists keys, In (g_parent g, keys) st /\ g_keyidx g < Z.of_nat (length keys) /\ g_timelock g <= child s /\ g_covered_ok g = true /\
    (beq (fst (nth (Z.to_nat (g_keyidx g)) keys ([], []))) sd = true ->
       vlookup vt (key32 (snd (nth (Z.to_nat (g_keyidx g)) keys ([], [])))) (g_sighash g) (sig64 (g_sig g)) = true) /\
    (beq (fst (nth (Z.to_nat (g_keyidx g)) keys ([], []))) sd = false -> beq (fst (nth (Z.to_nat (g_keyidx g)) keys ([], []))) se = false).

Lemma sig_loop_ok s l : forall m m', sig_loop s l m = Ok m' -> Forall (sig_ok s (statics m)) l /\ statics m' = statics m.
Proof.
  induction l as [|g r IH]; intros m m' E; cbn [sig_loop] in E; [inversion E; subst; split; [constructor | reflexivity]|].
  destruct (find (fun e => beq (se_id e) (g_parent g)) m) as [e|] eqn:F; [|discriminate].
  destruct (Z.leb_spec (Z.of_nat (length (se_keys e))) (g_keyidx g)); [discriminate|].
  destruct ((se_need e =? 0) || nth (Z.to_nat (g_keyidx g)) (se_used e) false); [discriminate|].
  destruct (Z.ltb_spec (child s) (g_timelock g)); [discriminate|].
  destruct (g_covered_ok g) eqn:Cov; [|discriminate]. cbn [negb] in E. cbv zeta in E.
  set (m1 := upd_ent m (g_parent g) _) in E.
  assert (S1 : statics m1 = statics m) by (apply upd_ent_statics; intros e0; split; reflexivity).
  destruct (nth (Z.to_nat (g_keyidx g)) (se_keys e) ([], [])) as [alg key] eqn:Nk.
  assert (Ok1 : forall m', sig_loop s r m1 = Ok m' ->
            (beq alg sd = true -> vlookup vt (key32 key) (g_sighash g) (sig64 (g_sig g)) = true) -> (beq alg sd = false -> beq alg se = false) ->
            Forall (sig_ok s (statics m)) (g :: r) /\ statics m' = statics m).
  { intros m2 E2 A B. destruct (IH _ _ E2) as [Fr Sr]. rewrite S1 in Fr, Sr. split; [|exact Sr]. constructor; [|exact Fr].
    exists (se_keys e). split; [apply find_statics; exact F|]. split; [lia|]. split; [lia|]. split; [exact Cov|]. rewrite Nk. cbn [fst snd]. split; assumption. }
  destruct (beq alg sd) eqn:Bd.
  - destruct (vlookup vt (key32 key) (g_sighash g) (sig64 (g_sig g))) eqn:V; [|discriminate]. apply (Ok1 _ E); [intros _; reflexivity | discriminate].
  - destruct (beq alg se) eqn:Be; [discriminate|]. apply (Ok1 _ E); [discriminate | intros _; reflexivity].
Qed.

Lemma add_entries_statics {A} (f : A -> id * list (bytes * bytes) * Z) code l : forall m m', add_entries f code l m = Ok m' ->
  map fst (statics m') = map fst (statics m) ++ map (fun x => fst (fst (f x))) l.
Proof.
  induction l as [|x l IH]; intros m m' E; cbn [add_entries] in E; [inversion E; subst; rewrite app_nil_r; reflexivity|].
  destruct (f x) as [[i k] n] eqn:Fx. unfold add_entry in E. destruct (existsb _ m); [discriminate|]. rewrite (IH _ _ E).
  unfold statics. rewrite !map_map, map_app. cbn [map]. rewrite Fx. cbn [fst]. rewrite <- app_assoc. reflexivity.
Qed.

Theorem v1_signatures_ok s t : validate_signatures vt se sd s t = Ok tt ->
  exists table, Forall (sig_ok s table) (t1_sigs t) /\
    (* the table has one entry for each input and revision of the transaction, in this order *)
    map fst table = map i1_parent (t1_sci t) ++ map f1_parent (t1_sfi t) ++ map r1_parent (t1_rev t).
Proof.
  unfold validate_signatures. intros V. apply bind_ok in V as (m1 & Esc & V). apply bind_ok in V as (m2 & Esf & V). apply bind_ok in V as (m3 & Erev & V).
  apply bind_ok in V as (mf & Loop & _). change (sig_loop s (t1_sigs t) m3 = Ok mf) in Loop.
  exists (statics m3). split; [exact (proj1 (sig_loop_ok s _ _ _ Loop))|].
  rewrite (add_entries_statics _ _ _ _ _ Erev), (add_entries_statics _ _ _ _ _ Esf), (add_entries_statics _ _ _ _ _ Esc). cbn [statics map app]. rewrite <- app_assoc. reflexivity.
Qed.
End V1Sigs.
