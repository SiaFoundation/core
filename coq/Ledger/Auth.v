(* What the smaller checks of ValidateV2Transaction (consensus/validation.go) guarantee once they return nil: attestations are
   signed, a renewal keeps both keys and the contract's value and carries both signatures, a Foundation update comes with an
   input of the management address (C03), and a resolution respects the height rule of its kind (C08). *)
From Coq Require Import ZArith List Bool Lia.
From Sia Require Import Prim.Result Prim.Tok Policy.Model Ledger.Types Ledger.Mid Ledger.Validate Ledger.Apply Ledger.Proofs.
Import ListNotations.
Open Scope Z_scope.

Section Auth.
Variable H : bytes -> bytes.
Variable vt : vtab.

Theorem attestations_signed t : validate_attestations vt t = Ok tt ->
  Forall (fun a => at_key_empty a = false /\ vlookup vt (at_pubkey a) (at_sighash a) (at_sig a) = true) (t2_att t).
Proof.
  unfold validate_attestations. induction (t2_att t) as [|a r IH]; intros Hv; [constructor|].
  simpl in Hv. destruct (at_key_empty a) eqn:Ek; [discriminate|].
  destruct (vlookup vt (at_pubkey a) (at_sighash a) (at_sig a)) eqn:Es; simpl in Hv; [|discriminate].
  constructor; [split; [exact Ek | exact Es] | apply IH; exact Hv].
Qed.

Theorem renewal_authorised s fc rn : validate_renewal vt s fc rn = Ok tt ->
  c_renter_key (rn_new rn) = c_renter_key fc /\ c_host_key (rn_new rn) = c_host_key fc /\
  vlookup vt (c_renter_key fc) (rn_sighash rn) (rn_renter_sig rn) = true /\
  vlookup vt (c_host_key fc) (rn_sighash rn) (rn_host_sig rn) = true /\
  sco_value (rn_final_renter rn) + rn_renter_rollover rn + sco_value (rn_final_host rn) + rn_host_rollover rn
    = sco_value (c_renter fc) + sco_value (c_host fc) /\
  validate_contract vt s (rn_new rn) = Ok tt.
Proof.
  unfold validate_renewal. intros Hv.
  destruct (beq (c_renter_key fc) (c_renter_key (rn_new rn))) eqn:K1; [|discriminate].
  destruct (beq (c_host_key fc) (c_host_key (rn_new rn))) eqn:K2; [|discriminate]. cbn [negb] in Hv.
  apply beq_eq in K1. apply beq_eq in K2.
  apply bind_ok in Hv as (a & Ea & Hv). apply bind_ok in Hv as (b & Eb & Hv). apply bind_ok in Hv as (total & Et & Hv). apply bind_ok in Hv as (existing & Ee & Hv).
  destruct (Z.eqb_spec total existing) as [Eq|]; [|discriminate]. cbn [negb] in Hv.
  apply bind_ok in Hv as (c1 & _ & Hv). apply bind_ok in Hv as (tx & _ & Hv). apply bind_ok in Hv as (cost & _ & Hv). apply bind_ok in Hv as (roll & _ & Hv).
  destruct (cost <? roll); [discriminate|]. apply bind_ok in Hv as ([] & Vc & Hv).
  destruct (vlookup vt (c_renter_key fc) (rn_sighash rn) (rn_renter_sig rn)) eqn:S1; [|discriminate].
  destruct (vlookup vt (c_host_key fc) (rn_sighash rn) (rn_host_sig rn)) eqn:S2; [|discriminate].
  apply cadd_ok in Ea, Eb, Et, Ee. repeat split; auto; lia.
Qed.

(* the Foundation addresses change only in a transaction that spends an output of the current management address
   (whose policy validation is C03_v2_input_authorised) *)
Theorem foundation_update_authorised s t a : validate_foundation_update s t = Ok tt -> t2_new_foundation t = Some a ->
  exists i, In i (t2_sci t) /\ sco_addr (sce_out (p_val (i2_parent i))) = s_found_mgmt s.
Proof.
  unfold validate_foundation_update. intros Hv E. rewrite E in Hv.
  destruct (existsb _ (t2_sci t)) eqn:Ex; [|discriminate]. apply existsb_exists in Ex. destruct Ex as (i & Hin & Hb).
  exists i. split; [exact Hin | apply beq_eq; exact Hb].
Qed.

(* C08: the height rule of each resolution kind *)
Theorem resolution_heights s rs : validate_resolution H vt s rs = Ok tt ->
  let fc := v2_fc (p_val (rs_parent rs)) in
  match rs_res rs with
  | RProof sp => c_proof_height fc <= child s /\ snd (p_val (sp2_index sp)) = c_proof_height fc /\ fst (mem_ci s (sp2_index sp)) = true
  | RExpiration => c_exp_height fc < child s
  | RRenewal _ => True
  end.
Proof.
  unfold validate_resolution. cbv zeta. destruct (rs_res rs) as [rn|sp|]; intros Hv; [exact I| |].
  - destruct (Z.ltb_spec (child s) (c_proof_height (v2_fc (p_val (rs_parent rs))))); [discriminate|].
    destruct (Z.eqb_spec (snd (p_val (sp2_index sp))) (c_proof_height (v2_fc (p_val (rs_parent rs))))); [|discriminate]. cbn [negb] in Hv.
    destruct (fst (mem_ci s (sp2_index sp))); [|discriminate]. repeat split; auto.
  - destruct (Z.leb_spec (child s) (c_exp_height (v2_fc (p_val (rs_parent rs))))); [discriminate | lia].
Qed.
End Auth.
