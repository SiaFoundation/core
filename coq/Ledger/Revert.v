(* Undoing a block on the element store: the diffs of ApplyBlock carry, for every leaf they rewrite, the element as it
   stood before the block; a store that writes those back (unspent / unresolved / unrevised) at the recorded leaf
   indices and drops the appended leaves is exactly the store before the block. *)
From Coq Require Import ZArith List Bool Lia.
From Sia Require Import Prim.Result Prim.Tok Policy.Model Ledger.Types Ledger.Mid Ledger.Validate Ledger.Apply Ledger.Base Ledger.VApply.
Import ListNotations.
Open Scope Z_scope.

(* not Base.set_nth_same (what a written position holds): writing to a position what it holds changes nothing *)
Lemma set_nth_same {A} k (x : A) l : nth_error l k = Some x -> Mid.set_nth k x l = l.
Proof. revert k. induction l as [|y l IH]; intros [|k] E; cbn in *; try discriminate; [inversion E; reflexivity | f_equal; apply IH; exact E]. Qed.
Lemma nth_error_ext {A} : forall a b : list A, (forall j, nth_error a j = nth_error b j) -> a = b.
Proof.
  induction a as [|x a IH]; intros [|y b] P; [reflexivity | discriminate (P 0%nat) | discriminate (P 0%nat)|].
  pose proof (P 0%nat) as P0. inversion P0. f_equal. apply IH. intros j. exact (P (S j)).
Qed.

Definition write_all (ls : list leaf) (ups : list (Z * leaf)) : list leaf :=
  fold_left (fun ls u => if fst u =? UNASSIGNED then ls else Mid.set_nth (Z.to_nat (fst u)) (snd u) ls) ups ls.

Lemma write_all_cons ls u ups : write_all ls (u :: ups) = write_all (if fst u =? UNASSIGNED then ls else Mid.set_nth (Z.to_nat (fst u)) (snd u) ls) ups.
Proof. reflexivity. Qed.
Lemma write_all_length ups : forall ls, length (write_all ls ups) = length ls.
Proof. induction ups as [|u ups IH]; intros ls; [reflexivity|]. rewrite write_all_cons. destruct (fst u =? UNASSIGNED); rewrite IH; [reflexivity | apply set_nth_length]. Qed.
Definition unnamed (ups : list (Z * leaf)) (j : nat) : Prop := forall u, In u ups -> fst u = UNASSIGNED \/ Z.to_nat (fst u) <> j.
Lemma write_all_other ups : forall ls j, unnamed ups j -> nth_error (write_all ls ups) j = nth_error ls j.
Proof.
  induction ups as [|u ups IH]; intros ls j Hn; [reflexivity|]. rewrite write_all_cons.
  rewrite IH by (intros v Hv; apply Hn; right; exact Hv). destruct (Z.eqb_spec (fst u) UNASSIGNED) as [E|NE]; [reflexivity|].
  apply set_nth_other. destruct (Hn u (or_introl eq_refl)) as [E|N]; [contradiction | exact (Nat.neq_sym _ _ N)].
Qed.
(* updates that carry the leaves of [ls] turn into [ls] any list that differs from it only at positions they name *)
Lemma write_all_restores ls : forall olds l0, length l0 = length ls ->
  Forall (fun o => fst o = UNASSIGNED \/ nth_error ls (Z.to_nat (fst o)) = Some (snd o)) olds ->
  (forall j, unnamed olds j -> nth_error l0 j = nth_error ls j) -> write_all l0 olds = ls.
Proof.
  induction olds as [|o olds IH]; intros l0 Ll Hold Ag; [apply nth_error_ext; intros j; apply Ag; intros u []|].
  inversion Hold as [|? ? Ho Hold']; subst. rewrite write_all_cons. destruct (Z.eqb_spec (fst o) UNASSIGNED) as [E|NE].
  - apply IH; [exact Ll | exact Hold'|]. intros j Un. apply Ag. intros u [<-|Hu]; [left; exact E | exact (Un u Hu)].
  - destruct Ho as [E|Ho]; [contradiction|]. apply IH; [rewrite set_nth_length; exact Ll | exact Hold'|]. intros j Un.
    destruct (Nat.eq_dec j (Z.to_nat (fst o))) as [->|Nj].
    + rewrite Ho. apply Base.set_nth_same. rewrite Ll. apply nth_error_Some. rewrite Ho. discriminate.
    + rewrite set_nth_other by exact Nj. apply Ag. intros u [<-|Hu]; [right; exact (Nat.neq_sym _ _ Nj) | exact (Un u Hu)].
Qed.

(* writing back, at every rewritten position, the leaf that stood there before gives the original list *)
Theorem write_back ls news olds :
  map fst olds = map fst news ->
  Forall (fun o => fst o = UNASSIGNED \/ nth_error ls (Z.to_nat (fst o)) = Some (snd o)) olds ->
  write_all (write_all ls news) olds = ls.
Proof.
  intros Hidx Hold. apply write_all_restores; [apply write_all_length | exact Hold|]. intros j Un. apply write_all_other.
  intros u Hu. apply in_map with (f := fst) in Hu. rewrite <- Hidx in Hu. apply in_map_iff in Hu. destruct Hu as (o & <- & Ho). exact (Un o Ho).
Qed.

Section Revert.
Variable net : lnetwork.

(* the leaf each diff found before the block (what a store must put back); created elements have no earlier leaf *)
Definition old_updates (s : lstate) (m : mid) (b : lblock) : list (Z * leaf) :=
  map (fun d => (d_sc_leaf d, {| l_elem := ESC (d_sce d); l_spent := false |})) (m_sces m)
  ++ map (fun d => (d_sf_leaf d, {| l_elem := ESF (d_sfe d); l_spent := false |})) (m_sfes m)
  ++ map (fun d => (d_fc_leaf d, {| l_elem := EFC (d_fce d); l_spent := false |})) (m_fces m)
  ++ map (fun d => (d_v2_leaf d, {| l_elem := EV2 (d_v2 d); l_spent := false |})) (m_v2fces m)
  ++ map (fun i => (UNASSIGNED, {| l_elem := EAT i; l_spent := false |})) (m_aes m)
  ++ [(UNASSIGNED, {| l_elem := ECI (b_id b) (child s); l_spent := false |})].

Lemma same_indices s m b : map fst (old_updates s m b) = map fst (leaf_updates s m b).
Proof. unfold old_updates, leaf_updates. rewrite !map_app, !map_map. reflexivity. Qed.

Definition revert_leaves (s : lstate) (s' : lstate) (m : mid) (b : lblock) : list leaf :=
  write_all (firstn (length (s_leaves s)) (s_leaves s')) (old_updates s m b).

(* if every leaf a diff points at held, before the block, the element the diff records (unspent) -- which is what
   validation checks of every presented element against the store -- then undoing the block restores the store *)
Theorem revert_restores s b s' m : apply_block net s b = Ok (s', m) ->
  Forall (fun o => fst o = UNASSIGNED \/ nth_error (s_leaves s) (Z.to_nat (fst o)) = Some (snd o)) (old_updates s m b) ->
  revert_leaves s s' m b = s_leaves s.
Proof.
  intros E Hold. unfold revert_leaves. rewrite (proj2 (apply_block_ok net s b s' m E)). unfold apply_leaves.
  change (fold_left (fun ls u => if fst u =? UNASSIGNED then ls else Mid.set_nth (Z.to_nat (fst u)) (snd u) ls) (leaf_updates s m b) (s_leaves s))
    with (write_all (s_leaves s) (leaf_updates s m b)).
  rewrite firstn_app, write_all_length, Nat.sub_diag, firstn_all2 by (rewrite write_all_length; lia). cbn [firstn]. rewrite app_nil_r.
  apply write_back; [apply same_indices | exact Hold].
Qed.
End Revert.
