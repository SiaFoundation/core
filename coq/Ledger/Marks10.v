(* C02 for resolved v2 contracts: an accepted v2-only block, applied, marks the leaf of every contract it resolves spent,
   and no later block of the chain revises or resolves that contract. Beyond Marks9.G the block needs [IdInv]: a contract
   diff with an assigned leaf points at the leaf of the contract with its own ID, so only the resolved diff writes there. *)
From Coq Require Import ZArith List Bool Lia.
From Sia Require Import Prim.Result Prim.Tok Policy.Model Ledger.Types Ledger.Mid Ledger.Validate Ledger.Apply Ledger.Proofs Ledger.Spends Ledger.VApply Ledger.Persist Ledger.RevertOk.
From Sia Require Import Ledger.Marks1 Ledger.Marks2 Ledger.Marks3 Ledger.Marks8 Ledger.Marks9.
Import ListNotations.
Open Scope Z_scope.

Section Marks10.
Variable H : bytes -> bytes.
Variable net : lnetwork.
Variable vt : vtab.
Variable pt : ptab.
Variable se sd : bytes.
Variable s : lstate.

Definition LiveId (j : Z) (i : id) : Prop := exists e, nth_error (s_leaves s) (Z.to_nat j) = Some {| l_elem := EV2 e; l_spent := false |} /\ v2_id e = i.
Definition Pid (d : v2fced) : Prop := d_v2_leaf d = UNASSIGNED \/ LiveId (d_v2_leaf d) (v2_id (d_v2 d)).
Definition IdInv (m : mid) : Prop := Forall Pid (m_v2fces m).

(* the diffs record the contract their leaf held (RevertOk.Qv2), hence its ID *)
Lemma accepted_idinv b s' m : validate_block H net vt pt se sd s b = Ok tt -> apply_block net s b = Ok (s', m) ->
  b_txns b = [] -> b_expiring b = [] -> IdInv m.
Proof.
  intros V A T0 X0. destruct (accepted_v2_qinv H net vt pt se sd s b s' m V A T0 X0) as (_ & _ & _ & Q4). eapply Forall_impl; [|exact Q4].
  intros d [U|[_ Hh]]; [left; exact U | right; exists (d_v2 d); split; [exact Hh | reflexivity]].
Qed.

Variable kind_of : id -> kind.
Variable id0 : id.
Variable lf0 : Z.
Hypothesis K0 : kind_of id0 = KV2.
Notation G := (Marks9.G kind_of id0 lf0).
Notation TxOK := (Marks9.TxOK kind_of id0 lf0).

(* every update of the contract's leaf index marks it spent: the only contract diff that can point at this leaf is the
   resolved one *)
Lemma leaf_updates_v2 m b e0 k0 d0 : Inv s m -> IdInv m -> Marks8.U kind_of m ->
  nth_error (s_leaves s) (Z.to_nat lf0) = Some {| l_elem := EV2 e0; l_spent := false |} -> v2_id e0 = id0 ->
  elem_idx m id0 = Some k0 -> nth_error (m_v2fces m) k0 = Some d0 -> d_v2_res d0 <> None ->
  forall u, In u (leaf_updates s m b) -> fst u <> UNASSIGNED -> Z.to_nat (fst u) = Z.to_nat lf0 -> l_spent (snd u) = true.
Proof.
  intros Im Iid Um N0 Ee E0 Nd Rd u Hin Ne Ek.
  destruct (leaf_updates_cases s (fun _ => False) ltac:(intros ? []) m b u (proj1 (inv_entries s m) Im) Hin Ne) as [T|[(d & e' & [] & _)|(d & Hd & Ld & Rs & _)]]; [exact T|]. exfalso.
  unfold IdInv in Iid. rewrite Forall_forall in Iid. destruct (Iid d Hd) as [Un|(e & Ne' & Ie)]; [congruence|].
  rewrite Ld, Ek, N0 in Ne'. inversion Ne'; subst e. destruct (In_nth_error _ _ Hd) as (k' & Nk').
  destruct (Um k' d Nk') as [Ek' _]. rewrite <- Ie, Ee, E0 in Ek'. inversion Ek'; subst k'. rewrite Nd in Nk'. inversion Nk'; subst d. contradiction.
Qed.

(* an accepted v2-only block, applied: the leaf of every v2 contract it resolves is spent afterwards *)
Theorem resolved_leaf_marked b s' m t0 rs0 :
  validate_block H net vt pt se sd s b = Ok tt -> apply_block net s b = Ok (s', m) -> b_txns b = [] -> b_expiring b = [] ->
  Forall TxOK (b_v2txns b) ->
  Forall (fun p : id * sco => kind_of (fst p) = KSC) (b_payouts b) -> kind_of (b_foundation_id b) = KSC ->
  In t0 (b_v2txns b) -> In rs0 (t2_res t0) -> v2_id (p_val (rs_parent rs0)) = id0 -> p_leaf (rs_parent rs0) = lf0 -> lf0 <> UNASSIGNED ->
  SpentAt (s_leaves s') (Z.to_nat lf0).
Proof using K0.
  intros V A T0 X0 Otx Opay Kf Ht0 Hi0 Eid Elf Nun. rewrite Forall_forall in Otx, Opay.
  assert (Mem : unspent_at s lf0 (EV2 (p_val (rs_parent rs0)))).
  { destruct (accepted_presented H net vt pt se sd s b t0 V Ht0) as (_ & _ & _ & P4). rewrite Forall_forall in P4. rewrite <- Elf. exact (P4 rs0 Hi0). }
  apply (consumed_marked H net vt pt se sd s kind_of id0 lf0 G b s' m t0 V A T0 X0).
  - apply g_new.
  - intros t Ht _. exact (apply_txn2_g kind_of id0 lf0 K0 net s t (Otx t Ht)).
  - intros i o mt Hi. apply (create_sce_g kind_of id0 lf0 K0). destruct Hi as [Hi| ->]; [apply in_map_iff in Hi; destruct Hi as (p & <- & Hp); exact (Opay p Hp) | exact Kf].
  - intros m0 [Gm _]. exact (proj2 Gm).
  - exact Ht0.
  - apply in_or_app. right. apply in_or_app. right. unfold res_ids. apply in_map_iff. exists rs0. split; assumption.
  - rewrite K0. discriminate.
  - exact Nun.
  - apply nth_error_Some. unfold unspent_at in Mem. congruence.
  - intros [_ Um] Im (k & x & Ek & Nx & Lx & Fx). rewrite K0 in Nx. apply nth_error_map_some in Nx. destruct Nx as (d & Nd & <-). cbn [snd] in Fx.
    apply (leaf_updates_v2 m b _ k d Im (accepted_idinv b s' m V A T0 X0) Um Mem Eid Ek Nd). destruct (d_v2_res d); discriminate.
Qed.
End Marks10.

Section NeverV2.
Variable H : bytes -> bytes.
Variable net : lnetwork.
Variable vt : vtab.
Variable pt : ptab.
Variable se sd : bytes.
(* a v2 contract resolved by an accepted block is never again revised or resolved (nor its leaf accepted as any other
   parent) by a later block of the chain *)
Theorem resolved_never_again (kind_of : id -> kind) (id0 : id) (lf0 : Z) s b s1 m t0 rs0 bs s' :
  kind_of id0 = KV2 ->
  validate_block H net vt pt se sd s b = Ok tt -> apply_block net s b = Ok (s1, m) -> b_txns b = [] -> b_expiring b = [] ->
  Forall (Marks9.TxOK kind_of id0 lf0) (b_v2txns b) ->
  Forall (fun p : id * sco => kind_of (fst p) = KSC) (b_payouts b) -> kind_of (b_foundation_id b) = KSC ->
  In t0 (b_v2txns b) -> In rs0 (t2_res t0) -> v2_id (p_val (rs_parent rs0)) = id0 -> p_leaf (rs_parent rs0) = lf0 -> lf0 <> UNASSIGNED ->
  chain H net vt pt se sd s1 bs s' ->
  forall mm t, validate_txn2 H net vt pt se sd s' mm t = Ok tt ->
    (forall i, In i (t2_sci t) -> p_leaf (i2_parent i) <> UNASSIGNED -> Z.to_nat (p_leaf (i2_parent i)) <> Z.to_nat lf0) /\
    (forall i, In i (t2_sfi t) -> p_leaf (f2_parent i) <> UNASSIGNED -> Z.to_nat (p_leaf (f2_parent i)) <> Z.to_nat lf0) /\
    (forall rv, In rv (t2_rev t) -> Z.to_nat (p_leaf (r2_parent rv)) <> Z.to_nat lf0) /\
    (forall rs, In rs (t2_res t) -> Z.to_nat (p_leaf (rs_parent rs)) <> Z.to_nat lf0).
Proof.
  intros K0 V A T0 X0 Otx Opay Kf Ht0 Hi0 Eid Elf Nun C mm t Vt.
  exact (chain_no_reuse H net vt pt se sd s1 bs s' _ C (resolved_leaf_marked H net vt pt se sd s kind_of id0 lf0 K0 b s1 m t0 rs0 V A T0 X0 Otx Opay Kf Ht0 Hi0 Eid Elf Nun) mm t Vt).
Qed.
End NeverV2.
