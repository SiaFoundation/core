(* What acceptance means: for the checks of Validate.v on the way of a block -- checked arithmetic, membership tests, element
   lookups, the supplement, the parts of a v2 and of a v1 transaction, the miner payout -- a lemma with the facts that success
   implies. The anonymous loops of those functions stand here under names ([sci_loop], [sfi_loop], [fc_loop], [rev_loop],
   [sfi1_loop]), each convertible with the original, so that one lemma says what a loop has checked. Beside these, facts that
   need no more than the above: a spend and the write that undoes it, truncation of appended leaves (C06), the range of the
   challenged leaf index (C07), the diff a spend records (C09). *)
From Coq Require Import ZArith List Bool Lia.
From Sia Require Import Prim.Result Prim.Tok Policy.Model Ledger.Types Ledger.Mid Ledger.Validate Ledger.Apply.
From Sia Require Export Ledger.Base.
Import ListNotations.
Open Scope Z_scope.

Lemma cadd_ok a b r : cadd a b = Ok r -> r = a + b /\ a + b < C128.
Proof. unfold cadd. destruct (Z.leb_spec C128 (a + b)); intros E; inversion E; lia. Qed.
Lemma csub_ok a b r : csub a b = Ok r -> r = a - b /\ b <= a.
Proof. unfold csub. destruct (Z.ltb_spec a b); intros E; inversion E; lia. Qed.
Lemma cdiv64_ok a v r : cdiv64 a v = Ok r -> r = a / v /\ v <> 0.
Proof. unfold cdiv64. destruct (Z.eqb_spec v 0); intros E; inversion E; auto. Qed.
Lemma claim_exact : forall pool start value c, claim_portion pool start value = Ok c ->
  c = (pool - start) / 10000 * value /\ start <= pool.
Proof.
  intros pool start value c Hc. unfold claim_portion in Hc. apply bind_ok in Hc as (d & Hd & Hc). apply bind_ok in Hc as (q & Hq & Hc).
  apply csub_ok in Hd. apply cdiv64_ok in Hq. destruct Hd as [-> ?], Hq as [-> _].
  unfold cmul64 in Hc. destruct (C128 <=? (pool - start) / 10000 * value); inversion Hc. auto.
Qed.

Definition zsum (l : list Z) : Z := fold_right Z.add 0 l.
(* a checked running sum: a loop that steps to itself on the tail with the head added returns the sum *)
Lemma running_sum_ok (f : list Z -> Z -> R Z) : (forall acc, f [] acc = Ok acc) ->
  (forall x l acc r, f (x :: l) acc = Ok r -> f l (acc + x) = Ok r) -> forall l acc r, f l acc = Ok r -> r = acc + zsum l.
Proof.
  intros F0 Fs. induction l as [|x l IH]; intros acc r E; [rewrite F0 in E; inversion E; unfold zsum; cbn [fold_right]; lia|]. rewrite (IH _ _ (Fs _ _ _ _ E)). unfold zsum. cbn [fold_right]. lia.
Qed.
Lemma csum_ok l acc r : csum l acc = Ok r -> r = acc + zsum l.
Proof.
  revert l acc r. apply running_sum_ok; [reflexivity|]. intros x l acc r E. cbn [csum] in E. apply bind_ok in E. destruct E as (a & Ea & E).
  apply cadd_ok in Ea. destruct Ea as [-> _]. exact E.
Qed.

Lemma sco_eqb_eq a b : sco_eqb a b = true -> a = b.
Proof.
  unfold sco_eqb. destruct a, b. cbn. intros E. apply andb_true_iff in E. destruct E as [E1 E2]. apply Z.eqb_eq in E1. apply beq_eq in E2. subst. reflexivity.
Qed.
Lemma list_sco_eqb_eq : forall a b, list_eqb sco_eqb a b = true -> a = b.
Proof.
  induction a as [|x a IH]; intros [|y b] E; cbn [list_eqb] in E; try discriminate; [reflexivity|].
  apply andb_true_iff in E. destruct E as [E1 E2]. apply sco_eqb_eq in E1. rewrite E1, (IH b E2). reflexivity.
Qed.
(* a comparison of records is the conjunction of the comparisons of their fields: [eqs] turns each of these in the context
   into the equality it decides *)
Ltac eqs := repeat match goal with
         | H : _ && _ = true |- _ => apply andb_true_iff in H; destruct H
         | H : (_ =? _) = true |- _ => apply Z.eqb_eq in H
         | H : beq _ _ = true |- _ => apply beq_eq in H
         | H : sco_eqb _ _ = true |- _ => apply sco_eqb_eq in H
         | H : list_eqb sco_eqb _ _ = true |- _ => apply list_sco_eqb_eq in H
         end.
Lemma sce_eqb_sound a b : sce_eqb a b = true -> a = b.
Proof. unfold sce_eqb. destruct a, b. cbn. intros E. eqs. subst. reflexivity. Qed.
Lemma sfe_eqb_sound a b : sfe_eqb a b = true -> a = b.
Proof. unfold sfe_eqb. destruct a, b. cbn. intros E. eqs. subst. reflexivity. Qed.
Lemma fce1_eqb_sound a b : fce1_eqb a b = true -> a = b.
Proof. unfold fce1_eqb, fc1_eqb. destruct a as [ai af], b as [bi bf]. destruct af, bf. cbn. intros E. eqs. subst. reflexivity. Qed.
Lemma fce2_eqb_sound a b : fce2_eqb a b = true -> a = b.
Proof. unfold fce2_eqb, fc2_eqb. destruct a as [ai af], b as [bi bf]. destruct af, bf. cbn. intros E. eqs. subst. reflexivity. Qed.

Definition unspent_at (s : lstate) (j : Z) (e : elem) : Prop := nth_error (s_leaves s) (Z.to_nat j) = Some {| l_elem := e; l_spent := false |}.

Lemma mem_gen_unspent {A} s (p : pres A) same : fst (mem_gen s p same) = true ->
  p_proof_ok p = true /\ exists e, same e = true /\ unspent_at s (p_leaf p) e.
Proof.
  unfold mem_gen, leaf_at, unspent_at. destruct (_ && _); [|discriminate].
  destruct (nth_error (s_leaves s) (Z.to_nat (p_leaf p))) as [[el sp]|]; [|discriminate]. cbn [l_elem l_spent].
  destruct (p_proof_ok p); [|discriminate]. destruct (same el) eqn:Se; [|discriminate]. destruct sp; [discriminate|]. eauto.
Qed.
Lemma mem_sc_unspent s p : fst (mem_sc s p) = true -> unspent_at s (p_leaf p) (ESC (p_val p)).
Proof. intros M. destruct (mem_gen_unspent _ _ _ M) as (_ & e & Se & U). destruct e; try discriminate. apply sce_eqb_sound in Se. subst. exact U. Qed.
Lemma mem_sf_unspent s p : fst (mem_sf s p) = true -> unspent_at s (p_leaf p) (ESF (p_val p)).
Proof. intros M. destruct (mem_gen_unspent _ _ _ M) as (_ & e & Se & U). destruct e; try discriminate. apply sfe_eqb_sound in Se. subst. exact U. Qed.
Lemma mem_fc_unspent s p : fst (mem_fc s p) = true -> unspent_at s (p_leaf p) (EFC (p_val p)).
Proof. intros M. destruct (mem_gen_unspent _ _ _ M) as (_ & e & Se & U). destruct e; try discriminate. apply fce1_eqb_sound in Se. subst. exact U. Qed.
Lemma mem_v2_unspent s p : fst (mem_v2 s p) = true -> unspent_at s (p_leaf p) (EV2 (p_val p)).
Proof. intros M. destruct (mem_gen_unspent _ _ _ M) as (_ & e & Se & U). destruct e; try discriminate. apply fce2_eqb_sound in Se. subst. exact U. Qed.
(* the two-valued verdict of a membership test, used as a check *)
Lemma mem_checked (us : bool * bool) e1 e2 : (let '(u, sp) := us in if u then Ok tt else if sp then err e1 else err e2) = @Ok Z unit tt -> fst us = true.
Proof. destruct us as [[|] [|]]; unfold err; cbn; congruence. Qed.

(* C04 / C02: membership against the store accepts only the current, unspent leaf *)
Theorem mem_sc_sound s p : fst (mem_sc s p) = true ->
  p_proof_ok p = true /\ nth_error (s_leaves s) (Z.to_nat (p_leaf p)) = Some {| l_elem := ESC (p_val p); l_spent := false |}.
Proof. intros M. split; [exact (proj1 (mem_gen_unspent _ _ _ M)) | exact (mem_sc_unspent s p M)]. Qed.

Theorem mem_spent_rejected s p e : nth_error (s_leaves s) (Z.to_nat (p_leaf p)) = Some {| l_elem := e; l_spent := true |} ->
  fst (mem_sc s p) = false.
Proof.
  intros Hn. unfold mem_sc, mem_gen, leaf_at.
  destruct ((0 <=? p_leaf p) && (p_leaf p <? Z.of_nat (length (s_leaves s)))); [|reflexivity].
  rewrite Hn. destruct (p_proof_ok p && _); reflexivity.
Qed.

Lemma set_nth_restore {A} (ls : list A) k (orig new : A) : nth_error ls k = Some orig ->
  Mid.set_nth k orig (Mid.set_nth k new ls) = ls.
Proof.
  revert k. induction ls as [|x r IH]; intros [|k]; simpl; try discriminate.
  - intros E; inversion E; reflexivity.
  - intros E. f_equal. apply IH; exact E.
Qed.

(* C06: the diff of a spend records exactly what undoing it needs *)
Theorem spend_then_restore s p ls' : fst (mem_sc s p) = true ->
  ls' = Mid.set_nth (Z.to_nat (p_leaf p)) {| l_elem := ESC (p_val p); l_spent := true |} (s_leaves s) ->
  (* a store that puts the element recorded in the diff back, unspent, at the recorded leaf index *)
  Mid.set_nth (Z.to_nat (p_leaf p)) {| l_elem := ESC (p_val p); l_spent := false |} ls' = s_leaves s.
Proof.
  intros Hm ->. destruct (mem_sc_sound s p Hm) as [_ Hn]. now apply set_nth_restore.
Qed.

Theorem appended_leaves_truncate (ls added : list leaf) : firstn (length ls) (ls ++ added) = ls.
Proof. rewrite firstn_app, Nat.sub_diag, firstn_all. simpl. now rewrite app_nil_r. Qed.

Lemma find_pres_some {A} (f : A -> id) i l p : find_pres f i l = Some p -> In p l /\ f (p_val p) = i.
Proof. unfold find_pres. intros F. apply find_some in F. destruct F as [Hin B]. split; [exact Hin | apply beq_eq; exact B]. Qed.
(* the three lookups share one shape: what the diff under the slot map's index gives if it carries the ID, else a fallback *)
Lemma lookup_cases {D T} (l : list D) (did : D -> id) (out : D -> option T) (fb : option T) m i r :
  match elem_idx m i with
  | Some k => match nth_error l k with Some d => if beq (did d) i then out d else fb | None => fb end
  | None => fb
  end = Some r ->
  (exists k d, elem_idx m i = Some k /\ nth_error l k = Some d /\ did d = i /\ out d = Some r) \/ fb = Some r.
Proof.
  destruct (elem_idx m i) as [k|]; [|auto]. destruct (nth_error l k) as [d|] eqn:N; [|auto]. destruct (beq (did d) i) eqn:B; [|auto].
  apply beq_eq in B. intros E. left. exists k, d. auto.
Qed.
Lemma pres_fallback {A} (f : A -> id) i l e lf : option_map (fun p => (p_val p, p_leaf p)) (find_pres f i l) = Some (e, lf) ->
  exists p, In p l /\ f (p_val p) = i /\ e = p_val p /\ lf = p_leaf p.
Proof. destruct (find_pres f i l) as [p|] eqn:F; [|discriminate]. intros E. inversion E. destruct (find_pres_some _ _ _ _ F). eauto 6. Qed.

Lemma sc_element_cases m ts i e lf : sc_element m ts i = Some (e, lf) ->
  (exists k d, elem_idx m i = Some k /\ nth_error (m_sces m) k = Some d /\ sce_id (d_sce d) = i /\ e = d_sce d /\ lf = d_sc_leaf d) \/
  (exists p, In p (u_sci ts) /\ sce_id (p_val p) = i /\ e = p_val p /\ lf = p_leaf p).
Proof.
  intros E. apply (lookup_cases (m_sces m) (fun d => sce_id (d_sce d)) (fun d => Some (d_sce d, d_sc_leaf d))) in E.
  destruct E as [(k & d & Ei & N & Ed & Er)|F]; [inversion Er; left; eauto 8 | right; exact (pres_fallback _ _ _ _ _ F)].
Qed.
Lemma sf_element_cases m ts i e lf : sf_element m ts i = Some (e, lf) ->
  (exists k d, elem_idx m i = Some k /\ nth_error (m_sfes m) k = Some d /\ sfe_id (d_sfe d) = i /\ e = d_sfe d /\ lf = d_sf_leaf d) \/
  (exists p, In p (u_sfi ts) /\ sfe_id (p_val p) = i /\ e = p_val p /\ lf = p_leaf p).
Proof.
  intros E. apply (lookup_cases (m_sfes m) (fun d => sfe_id (d_sfe d)) (fun d => Some (d_sfe d, d_sf_leaf d))) in E.
  destruct E as [(k & d & Ei & N & Ed & Er)|F]; [inversion Er; left; eauto 8 | right; exact (pres_fallback _ _ _ _ _ F)].
Qed.
Lemma fc_element_cases m ts i e lf : fc_element m ts i = Some (e, lf) ->
  (exists k d, elem_idx m i = Some k /\ nth_error (m_fces m) k = Some d /\ fce_id (d_fce d) = i /\ lf = d_fc_leaf d /\
               e = match d_fc_rev d with Some r => {| fce_id := fce_id (d_fce d); fce_fc := r |} | None => d_fce d end) \/
  (exists p, (In p (u_rev ts) \/ exists x, In x (u_sp ts) /\ p = ss_fc x) /\ fce_id (p_val p) = i /\ e = p_val p /\ lf = p_leaf p).
Proof.
  intros E. apply (lookup_cases (m_fces m) (fun d => fce_id (d_fce d))
    (fun d => match d_fc_rev d with Some r => Some ({| fce_id := fce_id (d_fce d); fce_fc := r |}, d_fc_leaf d) | None => Some (d_fce d, d_fc_leaf d) end)) in E.
  destruct E as [(k & d & Ei & N & Ed & Er)|F]; [left; exists k, d; destruct (d_fc_rev d); inversion Er; auto|]. right.
  destruct (find_pres fce_id i (u_rev ts)) as [p|] eqn:F1.
  - inversion F; subst. destruct (find_pres_some _ _ _ _ F1). exists p. auto.
  - destruct (find (fun s0 => beq (fce_id (p_val (ss_fc s0))) i) (u_sp ts)) as [x|] eqn:F2; [|discriminate].
    inversion F; subst. apply find_some in F2. destruct F2 as [Hin B]. apply beq_eq in B. exists (ss_fc x). split; [right; exists x; auto | auto].
Qed.
Lemma sc_element_id m ts i e lf : sc_element m ts i = Some (e, lf) -> sce_id e = i.
Proof. intros E. destruct (sc_element_cases _ _ _ _ _ E) as [(k & d & _ & _ & Ei & -> & _)|(p & _ & Ei & -> & _)]; exact Ei. Qed.
Lemma sf_element_id m ts i e lf : sf_element m ts i = Some (e, lf) -> sfe_id e = i.
Proof. intros E. destruct (sf_element_cases _ _ _ _ _ E) as [(k & d & _ & _ & Ei & -> & _)|(p & _ & Ei & -> & _)]; exact Ei. Qed.
Lemma fc_element_id m ts i e lf : fc_element m ts i = Some (e, lf) -> fce_id e = i.
Proof. intros E. destruct (fc_element_cases _ _ _ _ _ E) as [(k & d & _ & _ & Ei & _ & ->)|(p & _ & Ei & -> & _)]; [destruct (d_fc_rev d)|]; exact Ei. Qed.

Lemma first_err_all {A} (f : A -> bool) code l : first_err f code l = Ok tt -> Forall (fun x => f x = true) l.
Proof. induction l as [|x r IH]; intros E; [constructor|]. cbn [first_err] in E. destruct (f x) eqn:Fx; [|discriminate]. constructor; [exact Fx | apply IH; exact E]. Qed.
Lemma validate_supplement_ok net s b : validate_supplement net s b = Ok tt ->
  (ln_v2_require net <=? child s) && (negb (length (b_supp b) =? 0)%nat || negb (length (b_expiring b) =? 0)%nat) = false /\
  length (b_supp b) = length (b_txns b) /\
  Forall (fun u => Forall (fun p => fst (mem_sc s p) = true) (u_sci u) /\ Forall (fun p => fst (mem_sf s p) = true) (u_sfi u) /\
                   Forall (fun p => fst (mem_fc s p) = true) (u_rev u) /\ Forall (fun x => fst (mem_fc s (ss_fc x)) = true) (u_sp u)) (b_supp b) /\
  Forall (fun p : pres fce1 * list id => fst (mem_fc s (fst p)) = true) (b_expiring b).
Proof.
  unfold validate_supplement. destruct ((ln_v2_require net <=? child s) && _); [discriminate|].
  destruct (Nat.eqb_spec (length (b_supp b)) (length (b_txns b))) as [El|]; [|discriminate].
  intros E. apply bind_ok in E. destruct E as ([] & Es & Ee). split; [reflexivity|]. split; [exact El|]. split; [|exact (first_err_all _ _ _ Ee)].
  revert Es. clear El. induction (b_supp b) as [|u r IH]; intros Es; [constructor|].
  apply bind_ok in Es as ([] & Msc & Es). apply bind_ok in Es as ([] & Msf & Es). apply bind_ok in Es as ([] & Mrev & Es). apply bind_ok in Es as ([] & Msp & Es).
  constructor; [repeat split; eapply first_err_all; eassumption | exact (IH Es)].
Qed.

Section Props.
Variable H : bytes -> bytes.
Variable net : lnetwork.
Variable vt : vtab.
Variable pt : ptab.
Variable se sd : bytes.

(* C03 / C14: a v2 spend is authorised by a policy that hashes to the parent address *)
Theorem policy_authorises s sighash sp addr e1 e2 : validate_policy H vt pt se sd s sighash sp addr e1 e2 = Ok tt ->
  address H (sp_policy sp) = addr /\
  verify_policy (Z.to_N (s_height s)) (s_median s) (fun k sg => vlookup vt k sighash sg) (plookup pt) se sd
                (sp_policy sp) (sp_sigs sp) (sp_pres sp) = Ok tt.
Proof.
  unfold validate_policy. destruct (beq (address H (sp_policy sp)) addr) eqn:Ea; [|discriminate]. cbn [negb].
  apply beq_eq in Ea.
  destruct (verify_policy _ _ _ _ _ _ _ _ _) as [[]| |] eqn:Ev; try discriminate. auto.
Qed.

Definition sci_loop (s : lstate) (m : mid) (sighash : bytes) :=
  fix go (l : list sci2) (seen : list id) : R unit :=
    match l with
    | [] => Ok tt
    | i :: r =>
      let p := i2_parent i in
      let pid := sce_id (p_val p) in
      if is_spent m pid then err 74
      else if existsb (beq pid) seen then err 75
      else if child s <? sce_maturity (p_val p) then err 76
      else
        do _ <- (if p_leaf p =? UNASSIGNED then validate_ephemeral_sc net s m p
                 else let '(u, sp) := mem_sc s p in if u then Ok tt else if sp then err 80 else err 81);
        do _ <- validate_policy H vt pt se sd s sighash (i2_policy i) (sco_addr (sce_out (p_val p))) 82 83;
        go r (pid :: seen)
    end.

Lemma not_seen i seen : existsb (beq i) seen = false -> ~ In i seen.
Proof. intros E Hin. assert (existsb (beq i) seen = true) by (apply existsb_exists; eexists; split; [exact Hin | apply beq_refl]). congruence. Qed.

(* the seen-list discipline of the input and resolution loops: a key that is new against the seen ones, before keys that are
   distinct and new against it and the seen ones *)
Lemma seen_step {A} (key : A -> id) x r seen : ~ In (key x) seen ->
  NoDup (map key r) -> (forall j, In j r -> ~ In (key j) (key x :: seen)) ->
  NoDup (map key (x :: r)) /\ (forall j, In j (x :: r) -> ~ In (key j) seen).
Proof.
  intros Nx ND NS. split.
  - cbn [map]. constructor; [|exact ND]. intros Hin. apply in_map_iff in Hin. destruct Hin as (j & Ej & Hj). apply (NS j Hj). rewrite Ej. left; reflexivity.
  - intros j [<-|Hj]; [exact Nx|]. intros Hin. apply (NS j Hj). right; exact Hin.
Qed.

Lemma sci_loop_ok s m sh l : forall seen, sci_loop s m sh l seen = Ok tt ->
  Forall (fun i =>
    is_spent m (sce_id (p_val (i2_parent i))) = false /\
    sce_maturity (p_val (i2_parent i)) <= child s /\
    (p_leaf (i2_parent i) <> UNASSIGNED -> fst (mem_sc s (i2_parent i)) = true) /\
    address H (sp_policy (i2_policy i)) = sco_addr (sce_out (p_val (i2_parent i)))) l /\
  NoDup (map (fun i => sce_id (p_val (i2_parent i))) l) /\
  (forall i, In i l -> ~ In (sce_id (p_val (i2_parent i))) seen).
Proof.
  induction l as [|i r IH]; intros seen Hv; [repeat split; [constructor | constructor | intros ? []]|]. cbn [sci_loop] in Hv. cbv zeta in Hv.
  destruct (is_spent m (sce_id (p_val (i2_parent i)))) eqn:Esp; [discriminate|].
  destruct (existsb (beq (sce_id (p_val (i2_parent i)))) seen) eqn:Eex; [discriminate|].
  destruct (Z.ltb_spec (child s) (sce_maturity (p_val (i2_parent i)))); [discriminate|].
  apply bind_ok in Hv as ([] & Mem & Hv). apply bind_ok in Hv as ([] & Pol & Hv).
  apply policy_authorises in Pol. destruct Pol as [Ha _]. destruct (IH _ Hv) as (F & ND & NS).
  split; [|exact (seen_step (fun i => sce_id (p_val (i2_parent i))) i r seen (not_seen _ _ Eex) ND NS)].
  constructor; [|exact F]. repeat split; auto. intros Ne. destruct (Z.eqb_spec (p_leaf (i2_parent i)) UNASSIGNED); [contradiction | exact (mem_checked _ _ _ Mem)].
Qed.

(* C02: no siacoin element is used twice inside a v2 transaction, nor after an earlier use in the block *)
Theorem v2_inputs_distinct_unspent_mature s m t : validate_v2_siacoins H net vt pt se sd s m t = Ok tt ->
  Forall (fun i =>
    is_spent m (sce_id (p_val (i2_parent i))) = false /\
    sce_maturity (p_val (i2_parent i)) <= child s /\
    (p_leaf (i2_parent i) <> UNASSIGNED -> fst (mem_sc s (i2_parent i)) = true) /\
    address H (sp_policy (i2_policy i)) = sco_addr (sce_out (p_val (i2_parent i)))) (t2_sci t) /\
  NoDup (map (fun i => sce_id (p_val (i2_parent i))) (t2_sci t)).
Proof.
  unfold validate_v2_siacoins. intros Hv. apply bind_ok in Hv. destruct Hv as ([] & L & _).
  destruct (sci_loop_ok s m (t2_sighash t) (t2_sci t) [] L) as (F & ND & _). auto.
Qed.

Definition sfi_loop (s : lstate) (m : mid) (sighash : bytes) :=
  fix go (l : list sfi2) (seen : list id) : R unit :=
    match l with
    | [] => Ok tt
    | i :: r =>
      let p := f2_parent i in
      let pid := sfe_id (p_val p) in
      if is_spent m pid then err 86
      else if existsb (beq pid) seen then err 87
      else
        do _ <- (if p_leaf p =? UNASSIGNED then validate_ephemeral_sf net s m p
                 else let '(u, sp) := mem_sf s p in if u then Ok tt else if sp then err 90 else err 91);
        do _ <- validate_policy H vt pt se sd s sighash (f2_policy i) (sfe_addr (p_val p)) 92 93;
        go r (pid :: seen)
    end.
Definition fc_loop (s : lstate) :=
  fix go (l : list (id * fc2)) : R unit := match l with [] => Ok tt | (_, fc) :: r => do _ <- validate_contract vt s fc; go r end.
Definition rev_loop (s : lstate) (m : mid) :=
  fix go (l : list rev2) (revised : list id) : R (list id) :=
    match l with
    | [] => Ok revised
    | rv :: r =>
      do _ <- validate_parent2 s m (r2_parent rv) revised [];
      if c_proof_height (v2_fc (p_val (r2_parent rv))) <? child s then err 115
      else do _ <- validate_revision net vt s m (p_val (r2_parent rv)) (r2_rev rv);
        go r (v2_id (p_val (r2_parent rv)) :: revised)
    end.

Lemma sfi_loop_ok s m sh l : forall seen, sfi_loop s m sh l seen = Ok tt ->
  Forall (fun i => is_spent m (sfe_id (p_val (f2_parent i))) = false /\
                   (p_leaf (f2_parent i) <> UNASSIGNED -> fst (mem_sf s (f2_parent i)) = true) /\
                   address H (sp_policy (f2_policy i)) = sfe_addr (p_val (f2_parent i))) l /\
  NoDup (map (fun i => sfe_id (p_val (f2_parent i))) l) /\
  (forall i, In i l -> ~ In (sfe_id (p_val (f2_parent i))) seen).
Proof.
  induction l as [|i r IH]; intros seen Hg; [repeat split; [constructor | constructor | intros ? []]|]. cbn [sfi_loop] in Hg. cbv zeta in Hg.
  destruct (is_spent m (sfe_id (p_val (f2_parent i)))) eqn:Esp; [discriminate|].
  destruct (existsb (beq (sfe_id (p_val (f2_parent i)))) seen) eqn:Eex; [discriminate|].
  apply bind_ok in Hg as ([] & Mem & Hg). apply bind_ok in Hg as ([] & Pol & Hg).
  apply policy_authorises in Pol. destruct Pol as [Ha _]. destruct (IH _ Hg) as (F & ND & NS).
  split; [|exact (seen_step (fun i => sfe_id (p_val (f2_parent i))) i r seen (not_seen _ _ Eex) ND NS)].
  constructor; [|exact F]. repeat split; auto. intros Ne. destruct (Z.eqb_spec (p_leaf (f2_parent i)) UNASSIGNED); [contradiction | exact (mem_checked _ _ _ Mem)].
Qed.

Lemma v2_siafund_inputs_ok s m t : validate_v2_siafunds H net vt pt se sd s m t = Ok tt ->
  Forall (fun i => is_spent m (sfe_id (p_val (f2_parent i))) = false /\
                   (p_leaf (f2_parent i) <> UNASSIGNED -> fst (mem_sf s (f2_parent i)) = true) /\
                   address H (sp_policy (f2_policy i)) = sfe_addr (p_val (f2_parent i))) (t2_sfi t) /\
  NoDup (map (fun i => sfe_id (p_val (f2_parent i))) (t2_sfi t)).
Proof.
  unfold validate_v2_siafunds. intros Hv. apply bind_ok in Hv. destruct Hv as ([] & L & _).
  destruct (sfi_loop_ok s m (t2_sighash t) (t2_sfi t) [] L) as (F & ND & _). auto.
Qed.

Theorem contract_wellformed s fc : validate_contract vt s fc = Ok tt ->
  c_filesize fc <= c_capacity fc /\ child s <= c_proof_height fc /\ c_proof_height fc < c_exp_height fc /\
  c_missed_host fc <= sco_value (c_host fc) /\ c_collateral fc <= sco_value (c_host fc) /\
  vlookup vt (c_renter_key fc) (c_sighash fc) (c_renter_sig fc) = true /\
  vlookup vt (c_host_key fc) (c_sighash fc) (c_host_sig fc) = true.
Proof.
  unfold validate_contract.
  destruct (Z.ltb_spec (c_capacity fc) (c_filesize fc)); [discriminate|].
  destruct (Z.ltb_spec (c_proof_height fc) (child s)); [discriminate|].
  destruct (Z.leb_spec (c_exp_height fc) (c_proof_height fc)); [discriminate|].
  destruct ((sco_value (c_renter fc) =? 0) && (sco_value (c_host fc) =? 0)); [discriminate|].
  destruct (Z.ltb_spec (sco_value (c_host fc)) (c_missed_host fc)); [discriminate|].
  destruct (Z.ltb_spec (sco_value (c_host fc)) (c_collateral fc)); [discriminate|].
  unfold check_sigs.
  destruct (vlookup vt (c_renter_key fc) (c_sighash fc) (c_renter_sig fc)); [|discriminate]. cbn [negb].
  destruct (vlookup vt (c_host_key fc) (c_sighash fc) (c_host_sig fc)); [|discriminate].
  intros _. repeat split; lia.
Qed.

(* C07 / C01: v2 revisions keep the total, never lower the revision number, never raise the host's missed value, never touch
   total collateral or lower capacity *)
Theorem revision_invariants s m e rev : validate_revision net vt s m e rev = Ok tt ->
  exists cur,
    (cur = v2_fc e \/ exists i d, elem_idx m (v2_id e) = Some i /\ nth_error (m_v2fces m) i = Some d /\ d_v2_rev d = Some cur) /\
    sco_value (c_renter rev) + sco_value (c_host rev) = sco_value (c_renter cur) + sco_value (c_host cur) /\
    c_revnum cur < c_revnum rev /\
    c_missed_host rev <= c_missed_host cur /\
    c_collateral rev = c_collateral cur /\
    c_capacity cur <= c_capacity rev /\ c_filesize rev <= c_capacity rev /\
    child s <= c_proof_height cur /\ child s <= c_proof_height rev /\ c_proof_height rev < c_exp_height rev /\
    (* signed by the keys of the contract as it currently stands *)
    vlookup vt (c_renter_key cur) (c_sighash rev) (c_renter_sig rev) = true /\
    vlookup vt (c_host_key cur) (c_sighash rev) (c_host_sig rev) = true.
Proof.
  unfold validate_revision. intros Hv. apply bind_ok in Hv as (cur & Hcur & Hv). apply bind_ok in Hv as (cs & Hcs & Hv). apply bind_ok in Hv as (rs & Hrs & Hv).
  apply cadd_ok in Hcs, Hrs. destruct Hcs as [-> _], Hrs as [-> _].
  exists cur. split.
  { destruct (elem_idx m (v2_id e)) as [i|] eqn:Ei.
    - destruct (nth_error (m_v2fces m) i) as [d|] eqn:Ed; [|discriminate].
      destruct (d_v2_rev d) as [r|] eqn:Er; inversion Hcur; subst; [right; eauto|left; reflexivity].
    - inversion Hcur; left; reflexivity. }
  revert Hv.
  destruct (Z.ltb_spec (c_capacity rev) (c_capacity cur)); [discriminate|].
  destruct (Z.ltb_spec (c_capacity rev) (c_filesize rev)); [discriminate|].
  destruct (Z.ltb_spec (c_proof_height cur) (child s)); [discriminate|].
  destruct (Z.leb_spec (c_revnum rev) (c_revnum cur)); [discriminate|].
  destruct (Z.eqb_spec (sco_value (c_renter rev) + sco_value (c_host rev)) (sco_value (c_renter cur) + sco_value (c_host cur))); [|discriminate]. cbn [negb].
  destruct (Z.ltb_spec (c_missed_host cur) (c_missed_host rev)); [discriminate|].
  destruct ((ln_v2_ephemeral net <=? child s) && (sco_value (c_host rev) <? c_missed_host rev)); [discriminate|].
  destruct (Z.eqb_spec (c_collateral rev) (c_collateral cur)); [|discriminate]. cbn [negb].
  destruct (Z.ltb_spec (c_proof_height rev) (child s)); [discriminate|].
  destruct (Z.leb_spec (c_exp_height rev) (c_proof_height rev)); [discriminate|].
  unfold check_sigs.
  destruct (vlookup vt (c_renter_key cur) (c_sighash rev) (c_renter_sig rev)) eqn:V1; [|discriminate]. cbn [negb].
  destruct (vlookup vt (c_host_key cur) (c_sighash rev) (c_host_sig rev)) eqn:V2; [|discriminate].
  intros _. repeat split; try lia; auto.
Qed.

Lemma parent2_ok s m p revised resolved : validate_parent2 s m p revised resolved = Ok tt ->
  is_spent m (v2_id (p_val p)) = false /\ ~ In (v2_id (p_val p)) revised /\ ~ In (v2_id (p_val p)) resolved /\ fst (mem_v2 s p) = true.
Proof.
  unfold validate_parent2. destruct (is_spent m (v2_id (p_val p))); [discriminate|].
  destruct (existsb (beq (v2_id (p_val p))) revised) eqn:E1; [discriminate|]. destruct (existsb (beq (v2_id (p_val p))) resolved) eqn:E2; [discriminate|].
  intros E. repeat split; [apply not_seen; exact E1 | apply not_seen; exact E2 | exact (mem_checked _ _ _ E)].
Qed.

Lemma rev_loop_ok s m l : forall revised out, rev_loop s m l revised = Ok out ->
  Forall (fun rv => is_spent m (v2_id (p_val (r2_parent rv))) = false /\ fst (mem_v2 s (r2_parent rv)) = true /\
                    child s <= c_proof_height (v2_fc (p_val (r2_parent rv))) /\
                    validate_revision net vt s m (p_val (r2_parent rv)) (r2_rev rv) = Ok tt) l.
Proof.
  induction l as [|rv r IH]; intros revised out Hr; [constructor|]. cbn [rev_loop] in Hr. apply bind_ok in Hr as ([] & Par & Hr).
  destruct (Z.ltb_spec (c_proof_height (v2_fc (p_val (r2_parent rv)))) (child s)); [discriminate|]. apply bind_ok in Hr as ([] & Rev & Hr).
  destruct (parent2_ok _ _ _ _ _ Par) as (A & _ & _ & B). constructor; [auto | exact (IH _ _ Hr)].
Qed.

Lemma check_resolutions_ok s m revised l : forall resolved, check_resolutions H vt s m revised l resolved = Ok tt ->
  Forall (fun rs => is_spent m (v2_id (p_val (rs_parent rs))) = false /\ fst (mem_v2 s (rs_parent rs)) = true /\
                    validate_resolution H vt s rs = Ok tt) l /\
  NoDup (map (fun rs => v2_id (p_val (rs_parent rs))) l) /\
  (forall rs, In rs l -> ~ In (v2_id (p_val (rs_parent rs))) resolved).
Proof.
  induction l as [|rs r IH]; intros resolved Hc; [repeat split; [constructor | constructor | intros ? []]|].
  cbn [check_resolutions] in Hc. apply bind_ok in Hc as ([] & Par & Hc). apply bind_ok in Hc as ([] & Res & Hc).
  destruct (parent2_ok _ _ _ _ _ Par) as (A & _ & N & B).
  destruct (IH _ Hc) as (F & ND & NS). split; [constructor; [auto | exact F] | exact (seen_step (fun rs => v2_id (p_val (rs_parent rs))) rs r resolved N ND NS)].
Qed.

Lemma v2_contracts_ok s m t : validate_v2_contracts H net vt s m t = Ok tt ->
  Forall (fun rv => is_spent m (v2_id (p_val (r2_parent rv))) = false /\ fst (mem_v2 s (r2_parent rv)) = true /\
                    child s <= c_proof_height (v2_fc (p_val (r2_parent rv))) /\
                    validate_revision net vt s m (p_val (r2_parent rv)) (r2_rev rv) = Ok tt) (t2_rev t) /\
  Forall (fun rs => is_spent m (v2_id (p_val (rs_parent rs))) = false /\ fst (mem_v2 s (rs_parent rs)) = true /\
                    validate_resolution H vt s rs = Ok tt) (t2_res t) /\
  NoDup (map (fun rs => v2_id (p_val (rs_parent rs))) (t2_res t)).
Proof.
  unfold validate_v2_contracts. intros Hv. apply bind_ok in Hv. destruct Hv as ([] & _ & Hv). apply bind_ok in Hv. destruct Hv as (revised & L1 & L2).
  destruct (check_resolutions_ok s m revised (t2_res t) [] L2) as (F & ND & _). split; [exact (rev_loop_ok s m (t2_rev t) [] revised L1) | auto].
Qed.

Lemma validate_txn2_ok s m t : validate_txn2 H net vt pt se sd s m t = Ok tt ->
  ln_v2_allow net <= child s /\
  validate_v2_siacoins H net vt pt se sd s m t = Ok tt /\ validate_v2_siafunds H net vt pt se sd s m t = Ok tt /\
  validate_v2_contracts H net vt s m t = Ok tt /\ validate_attestations vt t = Ok tt /\ validate_foundation_update s t = Ok tt.
Proof.
  unfold validate_txn2. destruct (Z.ltb_spec (child s) (ln_v2_allow net)); [discriminate|]. intros Hv. apply bind_ok in Hv as (_ & _ & Hv).
  destruct (t2_weight t =? 0); [discriminate|]. destruct (MAXW <? t2_weight t); [discriminate|].
  apply bind_ok in Hv as ([] & Vsc & Hv). apply bind_ok in Hv as ([] & Vsf & Hv). apply bind_ok in Hv as ([] & Vfc & Hv). apply bind_ok in Hv as ([] & Vat & Vfu).
  auto 6.
Qed.

Definition presented (s : lstate) (t : txn2) : Prop :=
  Forall (fun i => p_leaf (i2_parent i) = UNASSIGNED \/ unspent_at s (p_leaf (i2_parent i)) (ESC (p_val (i2_parent i)))) (t2_sci t) /\
  Forall (fun i => p_leaf (f2_parent i) = UNASSIGNED \/ unspent_at s (p_leaf (f2_parent i)) (ESF (p_val (f2_parent i)))) (t2_sfi t) /\
  Forall (fun rv => unspent_at s (p_leaf (r2_parent rv)) (EV2 (p_val (r2_parent rv)))) (t2_rev t) /\
  Forall (fun rs => unspent_at s (p_leaf (rs_parent rs)) (EV2 (p_val (rs_parent rs)))) (t2_res t).
Lemma validate_presented s m t : validate_txn2 H net vt pt se sd s m t = Ok tt -> presented s t.
Proof.
  intros V. destruct (validate_txn2_ok s m t V) as (_ & V1 & V2 & V3 & _).
  destruct (v2_inputs_distinct_unspent_mature s m t V1) as [F1 _]. destruct (v2_siafund_inputs_ok s m t V2) as [F2 _]. destruct (v2_contracts_ok s m t V3) as (F3 & F4 & _).
  repeat split; (eapply Forall_impl; [|eassumption]); cbv beta.
  - intros i (_ & _ & M & _). destruct (Z.eq_dec (p_leaf (i2_parent i)) UNASSIGNED) as [|Ne]; [left; assumption | right; exact (mem_sc_unspent _ _ (M Ne))].
  - intros i (_ & M & _). destruct (Z.eq_dec (p_leaf (f2_parent i)) UNASSIGNED) as [|Ne]; [left; assumption | right; exact (mem_sf_unspent _ _ (M Ne))].
  - intros rv (_ & M & _). exact (mem_v2_unspent _ _ M).
  - intros rs (_ & M & _). exact (mem_v2_unspent _ _ M).
Qed.

Definition sfi1_loop (s : lstate) (m : mid) (ts : supp1) :=
  fix go (l : list sfi1) (acc : Z) : R Z :=
    match l with
    | [] => Ok acc
    | i :: r =>
      if child s <? f1_timelock i then err 30
      else if is_spent m (f1_parent i) then err 31
      else match sf_element m ts (f1_parent i) with
      | None => err 32
      | Some (p, _) =>
        if negb (beq (f1_uh i) (sfe_addr p))
           && negb ((ln_devaddr_height net <=? child s) && beq (sfe_addr p) (ln_devaddr_old net) && beq (f1_uh i) (ln_devaddr_new net))
        then err 33
        else go r ((acc + sfe_value p) mod 2 ^ 64)
      end
    end.

Lemma in_sci1_ok s m ts l : forall acc r, in_sci1 s m ts l acc = Ok r ->
  Forall (fun i => i1_timelock i <= child s /\ is_spent m (i1_parent i) = false /\
                   exists p lf, sc_element m ts (i1_parent i) = Some (p, lf) /\ i1_uh i = sco_addr (sce_out p) /\ sce_maturity p <= child s) l /\
  r = acc + zsum (map (fun i => match sc_element m ts (i1_parent i) with Some (p, _) => sco_value (sce_out p) | None => 0 end) l).
Proof.
  induction l as [|i l IH]; intros acc r E; cbn [in_sci1 map zsum fold_right] in *; [inversion E; split; [constructor | lia]|].
  destruct (Z.ltb_spec (child s) (i1_timelock i)); [discriminate|]. destruct (is_spent m (i1_parent i)) eqn:Sp; [discriminate|].
  destruct (sc_element m ts (i1_parent i)) as [[p lf]|] eqn:Q; [|discriminate].
  destruct (beq (i1_uh i) (sco_addr (sce_out p))) eqn:B; [|discriminate]. cbn [negb] in E. apply beq_eq in B.
  destruct (Z.ltb_spec (child s) (sce_maturity p)); [discriminate|].
  apply bind_ok in E. destruct E as (a & Ea & E). apply cadd_ok in Ea. destruct Ea as [-> _]. destruct (IH _ _ E) as [F ->].
  split; [constructor; [eauto 8 | exact F] | unfold zsum; lia].
Qed.
Lemma sfi1_loop_ok s m ts l : forall acc r, sfi1_loop s m ts l acc = Ok r ->
  Forall (fun i => f1_timelock i <= child s /\ is_spent m (f1_parent i) = false /\ exists p lf, sf_element m ts (f1_parent i) = Some (p, lf)) l /\
  r = fold_left (fun a i => (a + match sf_element m ts (f1_parent i) with Some (p, _) => sfe_value p | None => 0 end) mod 2 ^ 64) l acc.
Proof.
  induction l as [|i l IH]; intros acc r E; cbn [sfi1_loop fold_left] in *; [inversion E; split; [constructor | reflexivity]|].
  destruct (Z.ltb_spec (child s) (f1_timelock i)); [discriminate|]. destruct (is_spent m (f1_parent i)) eqn:Sp; [discriminate|].
  destruct (sf_element m ts (f1_parent i)) as [[p lf]|] eqn:Q; [|discriminate].
  match type of E with (if ?b then _ else _) = _ => destruct b; [discriminate|] end.
  destruct (IH _ _ E) as [F ->]. split; [constructor; [eauto 8 | exact F] | reflexivity].
Qed.

Lemma validate_txn1_ok s m t ts : validate_txn1 H net vt se sd s m t ts = Ok tt ->
  child s < ln_v2_require net /\
  validate_siacoins s m t ts = Ok tt /\ validate_siafunds net s m t ts = Ok tt /\ validate_file_contracts H net s m t ts = Ok tt /\
  validate_arbitrary net s t = Ok tt /\ validate_signatures vt se sd s t = Ok tt.
Proof.
  unfold validate_txn1. destruct (Z.leb_spec (ln_v2_require net) (child s)); [discriminate|]. intros V. apply bind_ok in V as (_ & _ & V).
  destruct (MAXW <? t1_weight t); [discriminate|]. apply bind_ok in V as (_ & _ & V).
  apply bind_ok in V as ([] & Vsc & V). apply bind_ok in V as ([] & Vsf & V). apply bind_ok in V as ([] & Vfc & V). apply bind_ok in V as ([] & Var & Vsig).
  auto 6.
Qed.

(* C08: ValidateTransaction returns an error from childHeight() = HardforkV2.RequireHeight on, ValidateV2Transaction below
   HardforkV2.AllowHeight *)
Theorem v1_not_after_require s m t ts : validate_txn1 H net vt se sd s m t ts = Ok tt -> child s < ln_v2_require net.
Proof. intros V. exact (proj1 (validate_txn1_ok s m t ts V)). Qed.
Theorem v2_not_before_allow s m t : validate_txn2 H net vt pt se sd s m t = Ok tt -> ln_v2_allow net <= child s.
Proof. intros V. exact (proj1 (validate_txn2_ok s m t V)). Qed.

Lemma fees_sum_ok fees acc r : fees_sum fees acc = Ok r -> r = acc + zsum fees.
Proof.
  revert fees acc r. apply running_sum_ok; [reflexivity|]. intros f fs acc r. cbn [fees_sum].
  destruct (f =? 0); [discriminate|]. destruct (C128 <=? acc + f); [discriminate | auto].
Qed.
Lemma v2fees_sum_ok fees acc r : v2fees_sum fees acc = Ok r -> r = acc + zsum fees.
Proof. revert fees acc r. apply running_sum_ok; [reflexivity|]. intros f fs acc r. cbn [v2fees_sum]. destruct (C128 <=? acc + f); [discriminate | auto]. Qed.
Lemma payouts_sum_ok ps acc r : payouts_sum ps acc = Ok r -> r = acc + zsum ps.
Proof.
  revert ps acc r. apply running_sum_ok; [reflexivity|]. intros f fs acc r. cbn [payouts_sum].
  destruct (f =? 0); [discriminate|]. destruct (C128 <=? acc + f); [discriminate | auto].
Qed.

(* C01: fees reappear exactly in the miner payout *)
Theorem miner_payout_exact s b : validate_miner_payouts net s b = Ok tt ->
  zsum (map (fun p => sco_value (snd p)) (b_payouts b)) =
  block_reward net s + zsum (flat_map t1_fees (b_txns b)) + (if b_is_v2 b then zsum (map t2_fee (b_v2txns b)) else 0).
Proof.
  unfold validate_miner_payouts. intros Hv.
  apply bind_ok in Hv as (fees1 & F1 & Hv). apply bind_ok in Hv as (due & Due & Hv). apply bind_ok in Hv as (paid & Paid & Hv).
  apply fees_sum_ok in F1. subst fees1.
  apply payouts_sum_ok in Paid. subst paid.
  destruct (Z.eqb_spec (0 + zsum (map (fun p => sco_value (snd p)) (b_payouts b))) due) as [Heq|]; [|discriminate].
  destruct (b_is_v2 b).
  - apply bind_ok in Due as (fees2 & F2 & Due). apply v2fees_sum_ok in F2. subst fees2.
    destruct (negb (length (b_payouts b) =? 1)%nat); [discriminate|]. inversion Due; subst. lia.
  - inversion Due; subst. lia.
Qed.
End Props.

Lemma leaf_index_in_range : forall H filesize window fcid, 0 < filesize ->
  0 <= sp_leaf_index H filesize window fcid < filesize / 64 + (if filesize mod 64 =? 0 then 0 else 1).
Proof.
  intros H filesize window fcid Hf. unfold sp_leaf_index.
  set (n := filesize / 64 + (if filesize mod 64 =? 0 then 0 else 1)).
  assert (Hn : 0 < n).
  { unfold n. pose proof (Z.div_mod filesize 64 ltac:(lia)). pose proof (Z.div_pos filesize 64). destruct (Z.eqb_spec (filesize mod 64) 0); lia. }
  destruct (Z.eqb_spec n 0); [lia|].
  generalize (be_words (H (window ++ fcid))). intros ws.
  assert (G : forall r0, 0 <= r0 < n -> 0 <= fold_left (fun r w => (r * 2 ^ 64 + w) mod n) ws r0 < n).
  { induction ws as [|w ws IH]; intros r0 Hr; simpl; [exact Hr|]. apply IH. apply Z.mod_pos_bound; lia. }
  apply G. lia.
Qed.

Lemma spend_records_presented : forall m e lf txid m', spend_sce m e lf txid = Ok m' ->
  exists k, nth_error (m_sces m') k = Some {| d_sce := e; d_sc_leaf := lf; d_sc_created := d_sc_created (nth k (m_sces m) dummy_sced); d_sc_spent := true |}.
Proof.
  intros m e lf txid m' E. unfold spend_sce in E. unrecord E k fr Sl. inversion E. exists k. exact (put_same k fr _ _ (slot_placed _ _ _ _ _ Sl)).
Qed.
