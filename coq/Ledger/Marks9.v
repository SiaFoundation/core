(* C02 for resolved v2 contracts, one transaction: a v2 transaction whose IDs respect their kinds ([TxOK]) keeps [G], the
   invariant [good] of Marks2 for the contract [id0] together with Marks8.U. *)
From Coq Require Import ZArith List Bool Lia.
From Sia Require Import Prim.Result Prim.Tok Policy.Model Ledger.Types Ledger.Mid Ledger.Validate Ledger.Apply Ledger.Proofs.
From Sia Require Import Ledger.Marks1 Ledger.Wk2 Ledger.Marks2 Ledger.Marks8.
Import ListNotations.
Open Scope Z_scope.

Section Marks9.
Variable kind_of : id -> kind.
Variable id0 : id.
Variable lf0 : Z.
Hypothesis K0 : kind_of id0 = KV2.
Notation U := (Marks8.U kind_of).
Definition G (m : mid) : Prop := good kind_of id0 lf0 m /\ U m.

Definition TxOK (t : txn2) : Prop :=
  Forall (fun i => kind_of (sce_id (p_val (i2_parent i))) = KSC) (t2_sci t) /\
  Forall (fun x : id * sco => kind_of (fst x) = KSC) (t2_sco t) /\
  Forall (fun i => kind_of (sfe_id (p_val (f2_parent i))) = KSF /\ kind_of (f2_claim_id i) = KSC) (t2_sfi t) /\
  Forall (fun x : id * (Z * bytes) => kind_of (fst x) = KSF) (t2_sfo t) /\
  Forall (fun x : id * fc2 => kind_of (fst x) = KV2 /\ fst x <> id0) (t2_fc t) /\
  Forall (fun rv => kind_of (v2_id (p_val (r2_parent rv))) = KV2 /\ (v2_id (p_val (r2_parent rv)) = id0 -> p_leaf (r2_parent rv) = lf0)) (t2_rev t) /\
  Forall (fun rs => kind_of (v2_id (p_val (rs_parent rs))) = KV2 /\ (v2_id (p_val (rs_parent rs)) = id0 -> p_leaf (rs_parent rs) = lf0) /\
                    kind_of (rs_renter_id rs) = KSC /\ kind_of (rs_host_id rs) = KSC /\
                    (forall rn, rs_res rs = RRenewal rn -> kind_of (rn_new_id rn) = KV2 /\ rn_new_id rn <> id0)) (t2_res t) /\
  Forall (fun a => kind_of (at_id a) = KAT) (t2_att t).

Lemma txok_ids t : TxOK t -> ids_ok kind_of id0 lf0 t.
Proof using K0.
  intros (O1 & O2 & O3 & O4 & O5 & O6 & O7 & O8). repeat split; try assumption; (eapply Forall_impl; [|eassumption]); cbv beta.
  - intros i Kp. split; [exact Kp | congruence].
  - intros x Kx. split; [exact Kx | congruence].
  - intros i (Kp & Kc). repeat split; try assumption; congruence.
  - intros x Kx. split; [exact Kx | congruence].
  - intros rs (Kp & Lp & Kr & Kh & Kn). repeat apply conj; try assumption; congruence.
  - intros a Ka. split; [exact Ka | congruence].
Qed.
Lemma txok_kinds t : TxOK t -> Kinds2 kind_of t.
Proof.
  intros (O1 & O2 & O3 & O4 & O5 & O6 & O7 & O8). repeat split; try assumption; (eapply Forall_impl; [|eassumption]); cbv beta.
  - intros x [Kx _]. exact Kx.
  - intros rv [Kx _]. exact Kx.
  - intros rs (Kp & _ & Kr & Kh & Kn). repeat split; try assumption. intros rn Er. exact (proj1 (Kn rn Er)).
Qed.

Lemma g_new s : G (new_mid s).
Proof. split; [apply good_new | apply u_new]. Qed.
Lemma apply_txn2_g net s t : TxOK t -> keeps G (fun m => apply_txn2 net s m t).
Proof using K0.
  intros Ot m m' E [Gm Um]. split; [exact (apply_txn2_keeps_good kind_of id0 lf0 net s t (txok_ids t Ot) m m' E Gm)|].
  apply u_registered. refine (proj2 (apply_txn2_wkj kind_of (registered kind_of KV2) _ _ net s t (txok_kinds t Ot) m m' E (conj (proj1 Gm) (proj1 (u_registered _ _) Um)))).
  - intros m0 m0' kd i lf fl. apply registered_records. discriminate.
  - intros m0 a b R. exact R.
Qed.
Lemma create_sce_g i o mt : kind_of i = KSC -> keeps G (fun m => create_sce m i o mt).
Proof using K0.
  intros Ki m m' E [Gm Um]. split; [exact (create_sce_good kind_of id0 lf0 i o mt Ki ltac:(congruence) m m' E Gm)|].
  apply u_registered. destruct (create_sce_records _ _ _ _ _ E) as [fl R].
  exact (registered_records kind_of KV2 _ _ _ _ _ _ ltac:(discriminate) (proj1 (u_registered _ _) Um) Ki R).
Qed.
End Marks9.
