(* C08 at the level of the block: application never reports an error (it can only panic), so a block is rejected with a
   transaction-level code only because one of its transactions is rejected with that code in the MidState reached. *)
From Coq Require Import ZArith List Bool Lia.
From Sia Require Import Prim.Result Prim.Tok Policy.Model Ledger.Types Ledger.Mid Ledger.Validate Ledger.Apply Ledger.Proofs Ledger.Exact2 Ledger.Exact1.
Import ListNotations.
Open Scope Z_scope.

Lemma slot_ne {A} m i (l : list A) c : slot m i l = Err c -> False.
Proof. unfold slot. destruct (elem_idx m i); [destruct (_ <? _)%nat|]; discriminate. Qed.
Lemma cadd_ne' a b c : cadd a b = Err c -> False. Proof. exact (cadd_ne a b c). Qed.
Lemma csub_ne a b c : csub a b = Err c -> False. Proof. unfold csub. destruct (a <? b); discriminate. Qed.
Lemma cmul64_ne a b c : cmul64 a b = Err c -> False. Proof. unfold cmul64. destruct (C128 <=? a * b); discriminate. Qed.
Lemma cdiv64_ne' a b c : cdiv64 a b = Err c -> False. Proof. exact (cdiv64_ne a b c). Qed.
Lemma v2_tax_ne' fc c : v2_tax fc = Err c -> False. Proof. exact (v2_tax_ne fc c). Qed.

(* a record primitive looks up its slot, which can panic but reports no error, and goes on with [f] *)
Lemma after_slot {A B} m i (l : list A) (f : nat * bool -> R B) : (forall kf c, f kf = Err c -> False) ->
  forall c, (do kf <- slot m i l; f kf) = Err c -> False.
Proof. intros F c E. apply bind_err in E. destruct E as [E | (kf & _ & E)]; [exact (slot_ne _ _ _ _ E) | exact (F kf c E)]. Qed.

Lemma create_sce_ne m i o mt c : create_sce m i o mt = Err c -> False.
Proof. apply after_slot. intros [k fr] c'. discriminate. Qed.
Lemma spend_sce_ne m e lf tx c : spend_sce m e lf tx = Err c -> False.
Proof. apply after_slot. intros [k fr] c'. discriminate. Qed.
Lemma create_sfe_ne m i v a c : create_sfe m i v a = Err c -> False.
Proof. apply after_slot. intros [k fr] c'. discriminate. Qed.
Lemma spend_sfe_ne m e lf tx c : spend_sfe m e lf tx = Err c -> False.
Proof. apply after_slot. intros [k fr] c'. discriminate. Qed.
Lemma create_fce_ne m i fc tax c : create_fce m i fc tax = Err c -> False.
Proof. apply after_slot. intros [k fr] c' E. apply bind_err in E. destruct E as [E | (p & _ & E)]; [exact (cadd_ne _ _ _ E) | discriminate E]. Qed.
Lemma revise_fce_ne m e lf rev c : revise_fce m e lf rev = Err c -> False.
Proof. apply after_slot. intros [k fr] c'. discriminate. Qed.
Lemma resolve_fce_ne m e lf v tx c : resolve_fce m e lf v tx = Err c -> False.
Proof. apply after_slot. intros [k fr] c'. discriminate. Qed.
Lemma create_v2_ne m i fc c : create_v2 m i fc = Err c -> False.
Proof.
  apply after_slot. intros [k fr] c' E. apply bind_err in E. destruct E as [E | (tax & _ & E)]; [exact (v2_tax_ne _ _ E)|].
  apply bind_err in E. destruct E as [E | (p & _ & E)]; [exact (cadd_ne _ _ _ E) | discriminate E].
Qed.
Lemma revise_v2_ne m e lf rev c : revise_v2 m e lf rev = Err c -> False.
Proof. apply after_slot. intros [k fr] c'. discriminate. Qed.
Lemma resolve_v2_ne m e lf k tx c : resolve_v2 m e lf k tx = Err c -> False.
Proof. apply after_slot. intros [k' fr] c'. cbv beta iota zeta. destruct (d_v2_created _); discriminate. Qed.

Lemma claim_ne a b v c : claim_portion a b v = Err c -> False.
Proof.
  unfold claim_portion. intros E. apply bind_err in E. destruct E as [E | (d & _ & E)]; [exact (csub_ne _ _ _ E)|].
  apply bind_err in E. destruct E as [E | (q & _ & E)]; [exact (cdiv64_ne _ _ _ E) | exact (cmul64_ne _ _ _ E)].
Qed.

Lemma fold_r_fails {A} (f : mid -> A -> R mid) P l : (forall m x, In x l -> fails (f m x) P) -> forall m, fails (fold_r f l m) P.
Proof.
  induction l as [|x l IH]; intros F m; cbn [fold_r]; [apply fails_ok|].
  apply fails_bind; [apply F; left; reflexivity | apply IH; intros m' y Hy; apply F; right; exact Hy].
Qed.

(* the codes of ValidateOrphan and validateSupplement lie below those of the transactions *)
Lemma fees_sum_low l : forall acc, fails (fees_sum l acc) (fun c => c < 20).
Proof. induction l as [|f r IH]; intros acc; cbn [fees_sum]; [apply fails_ok|]. apply fails_check; [lia|]. apply fails_check; [lia | apply IH]. Qed.
Lemma v2fees_sum_low l : forall acc, fails (v2fees_sum l acc) (fun c => c < 20).
Proof. induction l as [|f r IH]; intros acc; cbn [v2fees_sum]; [apply fails_ok|]. apply fails_check; [lia | apply IH]. Qed.
Lemma payouts_sum_low l : forall acc, fails (payouts_sum l acc) (fun c => c < 20).
Proof. induction l as [|f r IH]; intros acc; cbn [payouts_sum]; [apply fails_ok|]. apply fails_check; [lia|]. apply fails_check; [lia | apply IH]. Qed.
Lemma first_err_fails {A} (f : A -> bool) k l (P : Z -> Prop) : P k -> fails (first_err f k l) P.
Proof. intros Pk. induction l as [|x r IH]; cbn [first_err]; [apply fails_ok|]. destruct (f x); [exact IH | apply fails_err; exact Pk]. Qed.

Section BlockExact.
Variable H : bytes -> bytes.
Variable net : lnetwork.
Variable vt : vtab.
Variable pt : ptab.
Variable se sd : bytes.

Lemma orphan_low s b : fails (validate_orphan net s b) (fun c => c < 20).
Proof.
  unfold validate_orphan. cbv zeta. apply fails_check; [lia|].
  apply fails_bind; [|intros _; apply fails_check; [lia|]; apply fails_check; [lia | apply fails_ok]].
  unfold validate_miner_payouts. apply fails_bind; [apply fees_sum_low | intros e1]. apply fails_bind; [|intros e2].
  { destruct (b_is_v2 b); [|apply fails_ok]. apply fails_bind; [apply v2fees_sum_low | intros x]. apply fails_check; [lia | apply fails_ok]. }
  apply fails_bind; [apply payouts_sum_low | intros sm]. destruct (sm =? e2); [apply fails_ok | apply fails_err; lia].
Qed.
Lemma supplement_low s b : fails (validate_supplement net s b) (fun c => c < 20).
Proof.
  unfold validate_supplement. apply fails_check; [lia|]. apply fails_check; [lia|].
  apply fails_bind; [|intros _; apply first_err_fails; lia].
  induction (b_supp b) as [|u r IH]; [apply fails_ok|]. cbv beta iota zeta fix.
  do 4 (apply fails_bind; [apply first_err_fails; lia | intros _]). exact IH.
Qed.

(* ApplyTransaction and ApplyV2Transaction are folds of the record primitives, none of which reports an error *)
Lemma apply_txn1_ne s m t ts c : apply_txn1 net s m t ts = Err c -> False.
Proof.
  revert c. change (fails (apply_txn1 net s m t ts) (fun _ => False)). unfold apply_txn1. cbv zeta.
  apply fails_bind; [apply fold_r_fails; intros m0 i _ | intros m1].
  { destruct (sc_element m0 ts (i1_parent i)) as [[e lf]|]; [exact (spend_sce_ne _ _ _ _) | discriminate]. }
  apply fails_bind; [apply fold_r_fails; intros m0 x _; exact (create_sce_ne _ _ _ _) | intros m2].
  apply fails_bind; [apply fold_r_fails; intros m0 i _ | intros m3].
  { destruct (sf_element m0 ts (f1_parent i)) as [[e lf]|]; [|discriminate].
    apply fails_bind; [exact (claim_ne _ _ _) | intros cl]. apply fails_bind; [exact (spend_sfe_ne _ _ _ _) | intros ma]. exact (create_sce_ne _ _ _ _). }
  apply fails_bind; [apply fold_r_fails; intros m0 x _; exact (create_sfe_ne _ _ _ _) | intros m4].
  apply fails_bind; [apply fold_r_fails; intros m0 [[i fc] z] _; exact (create_fce_ne _ _ _ _) | intros m5].
  apply fails_bind; [apply fold_r_fails; intros m0 rv _ | intros m6].
  { destruct (fc_element m0 ts (r1_parent rv)) as [[e lf]|]; [exact (revise_fce_ne _ _ _ _) | discriminate]. }
  apply fails_bind; [apply fold_r_fails; intros m0 sp _ | intros m7].
  { destruct (fc_element m0 ts (s1_parent sp)) as [[e lf]|]; [|discriminate].
    apply fails_bind; [exact (resolve_fce_ne _ _ _ _ _) | intros ma]. apply fold_r_fails. intros mb io _. exact (create_sce_ne _ _ _ _). }
  destruct (ln_foundation_height net <=? s_height s); discriminate.
Qed.
Lemma apply_txn2_ne s m t c : apply_txn2 net s m t = Err c -> False.
Proof.
  revert c. change (fails (apply_txn2 net s m t) (fun _ => False)). unfold apply_txn2. cbv zeta.
  apply fails_bind; [apply fold_r_fails; intros m0 i _; exact (spend_sce_ne _ _ _ _) | intros m1].
  apply fails_bind; [apply fold_r_fails; intros m0 x _; exact (create_sce_ne _ _ _ _) | intros m2].
  apply fails_bind; [apply fold_r_fails; intros m0 i _ | intros m3].
  { apply fails_bind; [exact (spend_sfe_ne _ _ _ _) | intros ma]. apply fails_bind; [exact (claim_ne _ _ _) | intros cl]. exact (create_sce_ne _ _ _ _). }
  apply fails_bind; [apply fold_r_fails; intros m0 x _; exact (create_sfe_ne _ _ _ _) | intros m4].
  apply fails_bind; [apply fold_r_fails; intros m0 x _; exact (create_v2_ne _ _ _) | intros m5].
  apply fails_bind; [apply fold_r_fails; intros m0 rv _; exact (revise_v2_ne _ _ _ _) | intros m6].
  apply fails_bind; [apply fold_r_fails; intros m0 rs _ | intros m7].
  { apply fails_bind; [exact (resolve_v2_ne _ _ _ _ _) | intros ma].
    apply fails_bind; [destruct (rs_res rs); [exact (create_v2_ne _ _ _) | discriminate | discriminate] | intros mb].
    destruct (match rs_res rs with RRenewal rn => _ | RProof _ => _ | RExpiration => _ end) as [renter host].
    apply fails_bind; [exact (create_sce_ne _ _ _ _) | intros mc]. exact (create_sce_ne _ _ _ _). }
  destruct (t2_new_foundation t); discriminate.
Qed.

(* a block is rejected with a code of the transaction range only because a transaction of it is rejected with that code,
   in the MidState the transactions before it have produced *)
Theorem block_error_from_txn s b c : validate_block H net vt pt se sd s b = Err c -> 20 <= c ->
  (exists t ts m, In t (b_txns b) /\ validate_txn1 H net vt se sd s m t ts = Err c) \/
  (exists t m, In t (b_v2txns b) /\ validate_txn2 H net vt pt se sd s m t = Err c).
Proof.
  (* the statement is [fails (validate_block ..) P] for [P c := 20 <= c -> ..] *)
  revert c. refine (_ : fails _ (fun c => 20 <= c -> (_ : Prop))). unfold validate_block.
  apply fails_bind; [apply (fails_mono _ _ _ (orphan_low s b)); intros; lia | intros _].
  apply fails_bind; [apply (fails_mono _ _ _ (supplement_low s b)); intros; lia | intros _].
  apply fails_check; [intros; lia|].
  apply fails_bind; [|intros m1].
  - generalize (new_mid s) (b_supp b). pattern (b_txns b) at 1. apply part_ind; [intros m us; apply fails_ok | intros t r Hi IH m us]. cbn [validate_txns1].
    destruct us as [|u ur]; [discriminate|].
    apply fails_bind; [intros c E _; left; exists t, u, m; split; [exact Hi | exact E] | intros _].
    apply fails_bind; [exact (fails_ne _ _ (apply_txn1_ne _ _ _ _)) | intros m'; apply IH].
  - apply fails_bind; [|discriminate]. apply fold_r_fails. intros m t Hi.
    apply fails_bind; [intros c E _; right; exists t, m; split; [exact Hi | exact E] | intros _].
    exact (fails_ne _ _ (apply_txn2_ne _ _ _)).
Qed.
End BlockExact.
Print Assumptions block_error_from_txn.
