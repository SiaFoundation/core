(* C02 for siafund elements: a v2 transaction whose IDs respect their kinds ([TxOK]) keeps Marks5.Good; an accepted v2-only
   block of such transactions, applied, marks the leaf of every siafund input spent; no later block of the chain is
   accepted with a parent at that leaf. *)
From Coq Require Import ZArith List Bool Lia.
From Sia Require Import Prim.Result Prim.Tok Policy.Model Ledger.Types Ledger.Mid Ledger.Validate Ledger.Apply Ledger.Proofs Ledger.Spends Ledger.VApply Ledger.Persist.
From Sia Require Import Ledger.Marks1 Ledger.Marks2 Ledger.Marks3 Ledger.Marks5.
Import ListNotations.
Open Scope Z_scope.

Section Marks6.
Variable kind_of : id -> kind.
Variable id0 : id.
Variable lf0 : Z.
Hypothesis K0 : kind_of id0 = KSF.
Notation Good := (Marks5.Good kind_of id0 lf0).

Lemma with_foundation_good m a b : Good m -> Good (with_foundation m a b).
Proof. intros G. exact G. Qed.

Definition TxOK (t : txn2) : Prop :=
  Forall (fun i => kind_of (sce_id (p_val (i2_parent i))) = KSC) (t2_sci t) /\
  Forall (fun x : id * sco => kind_of (fst x) = KSC) (t2_sco t) /\
  Forall (fun i => kind_of (sfe_id (p_val (f2_parent i))) = KSF /\ (sfe_id (p_val (f2_parent i)) = id0 -> p_leaf (f2_parent i) = lf0) /\ kind_of (f2_claim_id i) = KSC) (t2_sfi t) /\
  Forall (fun x : id * (Z * bytes) => kind_of (fst x) = KSF /\ fst x <> id0) (t2_sfo t) /\
  Forall (fun x : id * fc2 => kind_of (fst x) = KV2) (t2_fc t) /\
  Forall (fun rv => kind_of (v2_id (p_val (r2_parent rv))) = KV2) (t2_rev t) /\
  Forall (fun rs => kind_of (v2_id (p_val (rs_parent rs))) = KV2 /\ kind_of (rs_renter_id rs) = KSC /\
                    kind_of (rs_host_id rs) = KSC /\ (forall rn, rs_res rs = RRenewal rn -> kind_of (rn_new_id rn) = KV2)) (t2_res t) /\
  Forall (fun a => kind_of (at_id a) = KAT) (t2_att t).

Lemma txok_ids t : TxOK t -> ids_ok kind_of id0 lf0 t.
Proof using K0.
  intros (O1 & O2 & O3 & O4 & O5 & O6 & O7 & O8). repeat split; try assumption; (eapply Forall_impl; [|eassumption]); cbv beta.
  - intros i Kp. split; [exact Kp | congruence].
  - intros x Kx. split; [exact Kx | congruence].
  - intros i (Kp & Lp & Kc). repeat split; try assumption. congruence.
  - intros x Kx. split; [exact Kx | congruence].
  - intros rv Kx. split; [exact Kx | congruence].
  - intros rs (Kp & Kr & Kh & Kn). repeat apply conj; try assumption; [congruence | congruence | congruence | intros rn Er; split; [exact (Kn rn Er) | specialize (Kn rn Er); congruence]].
  - intros a Ka. split; [exact Ka | congruence].
Qed.

Lemma apply_txn2_good net s m t m' : TxOK t -> apply_txn2 net s m t = Ok m' -> Good m -> Good m'.
Proof using K0. intros Ot E G. apply (good_sf kind_of id0 lf0 K0). apply (good_sf kind_of id0 lf0 K0) in G. exact (apply_txn2_keeps_good kind_of id0 lf0 net s t (txok_ids t Ot) m m' E G). Qed.
End Marks6.

Section BlockSF.
Variable H : bytes -> bytes.
Variable net : lnetwork.
Variable vt : vtab.
Variable pt : ptab.
Variable se sd : bytes.
Variable s : lstate.
Variable kind_of : id -> kind.
Variable id0 : id.
Variable lf0 : Z.
Hypothesis K0 : kind_of id0 = KSF.
Notation TxOK := (Marks6.TxOK kind_of id0 lf0).

Theorem consumed_sf_leaf_marked b s' m t0 i0 :
  validate_block H net vt pt se sd s b = Ok tt -> apply_block net s b = Ok (s', m) -> b_txns b = [] -> b_expiring b = [] ->
  Forall TxOK (b_v2txns b) ->
  Forall (fun p : id * sco => kind_of (fst p) = KSC) (b_payouts b) -> kind_of (b_foundation_id b) = KSC ->
  In t0 (b_v2txns b) -> In i0 (t2_sfi t0) -> sfe_id (p_val (f2_parent i0)) = id0 -> p_leaf (f2_parent i0) = lf0 -> lf0 <> UNASSIGNED ->
  SpentAt (s_leaves s') (Z.to_nat lf0).
Proof using K0.
  intros V A T0 X0 Otx Opay Kf Ht0 Hi0 Eid Elf Nun.
  destruct (accepted_presented H net vt pt se sd s b t0 V Ht0) as (_ & P2 & _). rewrite Forall_forall in P2.
  apply (consumed_marked_good H net vt pt se sd s kind_of id0 lf0 b s' m t0 (ESF (p_val (f2_parent i0))) V A T0 X0); try assumption.
  - eapply Forall_impl; [|exact Otx]. exact (txok_ids kind_of id0 lf0 K0).
  - eapply Forall_impl; [|exact Opay]. cbv beta. intros p Kp. split; [exact Kp | congruence].
  - congruence.
  - apply in_or_app. right. apply in_or_app. left. unfold sfi_ids. apply in_map_iff. exists i0. split; assumption.
  - rewrite K0. discriminate.
  - destruct (P2 i0 Hi0); congruence.
  - discriminate.
Qed.
End BlockSF.

Section NeverSF.
Variable H : bytes -> bytes.
Variable net : lnetwork.
Variable vt : vtab.
Variable pt : ptab.
Variable se sd : bytes.
(* a siafund element consumed by an accepted block is never again accepted as a parent by a later block of the chain *)
Theorem consumed_sf_never_again (kind_of : id -> kind) (id0 : id) (lf0 : Z) s b s1 m t0 i0 bs s' :
  kind_of id0 = KSF ->
  validate_block H net vt pt se sd s b = Ok tt -> apply_block net s b = Ok (s1, m) -> b_txns b = [] -> b_expiring b = [] ->
  Forall (Marks6.TxOK kind_of id0 lf0) (b_v2txns b) ->
  Forall (fun p : id * sco => kind_of (fst p) = KSC) (b_payouts b) -> kind_of (b_foundation_id b) = KSC ->
  In t0 (b_v2txns b) -> In i0 (t2_sfi t0) -> sfe_id (p_val (f2_parent i0)) = id0 -> p_leaf (f2_parent i0) = lf0 -> lf0 <> UNASSIGNED ->
  chain H net vt pt se sd s1 bs s' ->
  forall mm t, validate_txn2 H net vt pt se sd s' mm t = Ok tt ->
    (forall i, In i (t2_sci t) -> p_leaf (i2_parent i) <> UNASSIGNED -> Z.to_nat (p_leaf (i2_parent i)) <> Z.to_nat lf0) /\
    (forall i, In i (t2_sfi t) -> p_leaf (f2_parent i) <> UNASSIGNED -> Z.to_nat (p_leaf (f2_parent i)) <> Z.to_nat lf0) /\
    (forall rv, In rv (t2_rev t) -> Z.to_nat (p_leaf (r2_parent rv)) <> Z.to_nat lf0) /\
    (forall rs, In rs (t2_res t) -> Z.to_nat (p_leaf (rs_parent rs)) <> Z.to_nat lf0).
Proof.
  intros K0 V A T0 X0 Otx Opay Kf Ht0 Hi0 Eid Elf Nun C mm t Vt.
  exact (chain_no_reuse H net vt pt se sd s1 bs s' _ C (consumed_sf_leaf_marked H net vt pt se sd s kind_of id0 lf0 K0 b s1 m t0 i0 V A T0 X0 Otx Opay Kf Ht0 Hi0 Eid Elf Nun) mm t Vt).
Qed.
End NeverSF.
