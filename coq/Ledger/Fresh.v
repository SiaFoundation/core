(* C02: the hypotheses of the marking theorem for siacoin elements as decidable checks of the block. *)
From Coq Require Import ZArith List Bool Lia.
From Sia Require Import Prim.Result Prim.Tok Policy.Model Ledger.Types Ledger.Mid Ledger.Validate Ledger.Apply Ledger.Proofs Ledger.Persist Ledger.Marks1 Ledger.Marks2 Ledger.Marks3 Ledger.Wk2 Ledger.Kinds Ledger.Fresh2.
Import ListNotations.
Open Scope Z_scope.

(* siacoin elements the v2 transactions and the block itself create, and the siacoin parents the v2 transactions consume *)
Definition sc_created2 (t : txn2) : list id :=
  map (fun x : id * sco => fst x) (t2_sco t) ++ map f2_claim_id (t2_sfi t) ++ flat_map (fun rs => [rs_renter_id rs; rs_host_id rs]) (t2_res t).
Definition sc_createdB (b : lblock) : list id := flat_map sc_created2 (b_v2txns b) ++ map (fun p : id * sco => fst p) (b_payouts b) ++ [b_foundation_id b].
Definition sc_parents2 (t : txn2) : list (id * Z) := map (fun i => (sce_id (p_val (i2_parent i)), p_leaf (i2_parent i))) (t2_sci t).
Definition sc_parentsB (b : lblock) : list (id * Z) := flat_map sc_parents2 (b_v2txns b).
(* for every consumed element with an assigned leaf (not created in this block): nothing is created under its ID, and inputs
   with the same parent ID present the same leaf *)
Definition fresh_sc (b : lblock) : bool :=
  forallb (fun p => (snd p =? UNASSIGNED) ||
                    (negb (existsb (beq (fst p)) (sc_createdB b)) &&
                     forallb (fun q => negb (beq (fst q) (fst p)) || (snd q =? snd p)) (sc_parentsB b))) (sc_parentsB b).

Section FreshSC.
Variable b : lblock.
Hypothesis C : consistent (declsB b) = true.
Hypothesis F : fresh_sc b = true.
Notation kf := (kind_from (declsB b)).
Variables (t0 : txn2) (i0 : sci2).
Hypothesis Ht0 : In t0 (b_v2txns b).
Hypothesis Hi0 : In i0 (t2_sci t0).
Notation id0 := (sce_id (p_val (i2_parent i0))).
Notation lf0 := (p_leaf (i2_parent i0)).

Lemma parent0 : In (id0, lf0) (sc_parentsB b).
Proof. apply in_flat_map. exists t0. split; [exact Ht0 | exact (in_map (fun i => (sce_id (p_val (i2_parent i)), p_leaf (i2_parent i))) _ _ Hi0)]. Qed.
Hypothesis Nun : lf0 <> UNASSIGNED.
(* [fresh_sc b] unfolds to [fresh_gen (sc_parentsB b) (sc_parentsB b) (sc_createdB b)] *)
Lemma fresh0 : (forall c, In c (sc_createdB b) -> c <> id0) /\ (forall i lf, In (i, lf) (sc_parentsB b) -> i = id0 -> lf = lf0).
Proof. exact (fresh_gen_spec (sc_parentsB b) (sc_parentsB b) (sc_createdB b) id0 lf0 F parent0 Nun). Qed.
Lemma kind0 : kf id0 = KSC.
Proof. destruct (kinds2 b C t0 Ht0) as (K1 & _). rewrite Forall_forall in K1. exact (K1 i0 Hi0). Qed.

Lemma txok t : In t (b_v2txns b) -> Marks2.TxOK kf id0 lf0 t.
Proof.
  intros Ht. destruct (kinds2 b C t Ht) as (K1 & K2 & K3 & K4 & K5 & K6 & K7 & K8).
  destruct (fresh_gen_txn sc_parents2 sc_created2 _ _ _ _ _ t F parent0 Nun Ht (incl_appl _ (incl_refl _))) as [Ct St].
  unfold sc_created2 in Ct. rewrite !Forall_app, !Forall_map, Forall_flat_map in Ct. destruct Ct as (C2 & C3 & C7).
  unfold sc_parents2 in St. rewrite Forall_map in St.
  unfold Marks2.TxOK. repeat split; try assumption.
  - exact (Forall_and K1 St).
  - exact (Forall_and K2 C2).
  - rewrite Forall_forall in *. intros i Hi. destruct (K3 i Hi). auto.
  - rewrite Forall_forall in *. intros rs Hrs. destruct (K7 rs Hrs) as (A & B & D & E). specialize (C7 rs Hrs). inversion C7 as [|? ? Nr C7']. inversion C7'. auto 8.
Qed.
Lemma payouts_ok : Forall (fun p : id * sco => kf (fst p) = KSC /\ fst p <> id0) (b_payouts b).
Proof.
  destruct (consistent_kinds b C) as (_ & _ & Kp & _). apply (Forall_and Kp). apply Forall_forall. intros p Hp.
  apply (proj1 fresh0). apply in_or_app. right. apply in_or_app. left. exact (in_map (fun p : id * sco => fst p) _ _ Hp).
Qed.
Lemma foundation_ok : kf (b_foundation_id b) = KSC /\ b_foundation_id b <> id0.
Proof.
  destruct (consistent_kinds b C) as (_ & _ & _ & Kf & _). split; [exact Kf|]. apply (proj1 fresh0). do 2 (apply in_or_app; right). left. reflexivity.
Qed.
End FreshSC.

(* the marking theorem with checks in place of hypotheses: an accepted v2-only block that passes the two checks marks the
   leaf of every siacoin input it consumes *)
Theorem consumed_marked_checked H net vt pt se sd s b s' m t0 i0 :
  validate_block H net vt pt se sd s b = Ok tt -> apply_block net s b = Ok (s', m) -> b_txns b = [] -> b_expiring b = [] ->
  consistent (declsB b) = true -> fresh_sc b = true ->
  In t0 (b_v2txns b) -> In i0 (t2_sci t0) -> p_leaf (i2_parent i0) <> UNASSIGNED ->
  SpentAt (s_leaves s') (Z.to_nat (p_leaf (i2_parent i0))).
Proof.
  intros V A T0 X0 C F Ht0 Hi0 Nun.
  apply (consumed_leaf_marked H net vt pt se sd s (kind_from (declsB b)) (sce_id (p_val (i2_parent i0))) (p_leaf (i2_parent i0))
           (kind0 b C t0 i0 Ht0 Hi0) b s' m t0 i0 V A T0 X0); try assumption; try reflexivity.
  - apply Forall_forall. intros t Ht. exact (txok b C F t0 i0 Ht0 Hi0 Nun t Ht).
  - exact (payouts_ok b C F t0 i0 Ht0 Hi0 Nun).
  - exact (proj1 (foundation_ok b C F t0 i0 Ht0 Hi0 Nun)).
  - exact (proj2 (foundation_ok b C F t0 i0 Ht0 Hi0 Nun)).
Qed.
