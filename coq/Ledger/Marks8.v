(* C02 for resolved v2 contracts: an unresolved diff of the same contract pointing at the same leaf would overwrite the
   mark, so the contract slice needs the converse of the slot-map invariant as well ([U], Marks1.registered for KV2):
   every diff sits in the slot the map holds for its ID. *)
From Coq Require Import ZArith List Bool Lia.
From Sia Require Import Prim.Result Prim.Tok Policy.Model Ledger.Types Ledger.Mid Ledger.Validate Ledger.Apply Ledger.Proofs.
From Sia Require Import Ledger.Marks1.
Import ListNotations.
Open Scope Z_scope.

Section MarksV2.
Variable kind_of : id -> kind.

Definition U (m : mid) : Prop := forall k d, nth_error (m_v2fces m) k = Some d -> elem_idx m (v2_id (d_v2 d)) = Some k /\ kind_of (v2_id (d_v2 d)) = KV2.
Lemma u_registered m : U m <-> registered kind_of KV2 m.
Proof.
  unfold U, registered. cbn [view]. split; intros Um k x N.
  - apply nth_error_map_some in N. destruct N as (d & Nd & <-). exact (Um k d Nd).
  - apply (Um k (v2_id (d_v2 x), d_v2_leaf x, match d_v2_res x with Some _ => true | None => false end)), nth_error_map_some. eauto.
Qed.
Lemma u_new s : U (new_mid s).
Proof. intros k d N. destruct k; discriminate. Qed.
End MarksV2.
