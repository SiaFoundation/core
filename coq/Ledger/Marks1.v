(* C02 / C10: the MidState records every element in a slot found through one map from IDs to slice indices shared by all
   kinds. What keeps that sound is what the ID derivation (C12) provides: an ID names elements of one kind only. This file:
   the slices seen uniformly, what a record does to them, and the two invariants every record keeps -- the slot map stays
   consistent, and the diff of a consumed element stays in place -- for an element of any kind; at the end they are read
   off the siacoin slice ([Tr], [Good], [rec_*]). *)
From Coq Require Import ZArith List Bool Lia.
From Sia Require Import Prim.Result Prim.Tok Policy.Model Ledger.Types Ledger.Mid Ledger.Validate Ledger.Apply Ledger.Proofs.
Import ListNotations.
Open Scope Z_scope.

Inductive kind := KSC | KSF | KFC | KV2 | KAT.
Lemma kind_dec (a b : kind) : {a = b} + {a <> b}. Proof. decide equality. Qed.

Lemma beq_neq a b : beq a b = false -> a <> b.
Proof. intros E Eq. subst. rewrite beq_refl in E. discriminate. Qed.

(* the slices, uniformly: of each diff the ID, the leaf index and the flag that ApplyBlock writes as the leaf's spent bit
   ([leaf_updates], see Marks3.view_updates) *)
Definition view (m : mid) (kd : kind) : list (id * Z * bool) :=
  match kd with
  | KSC => map (fun d => (sce_id (d_sce d), d_sc_leaf d, d_sc_spent d)) (m_sces m)
  | KSF => map (fun d => (sfe_id (d_sfe d), d_sf_leaf d, d_sf_spent d)) (m_sfes m)
  | KFC => map (fun d => (fce_id (d_fce d), d_fc_leaf d, d_fc_resolved d)) (m_fces m)
  | KV2 => map (fun d => (v2_id (d_v2 d), d_v2_leaf d, match d_v2_res d with Some _ => true | None => false end)) (m_v2fces m)
  | KAT => map (fun i => (i, UNASSIGNED, false)) (m_aes m)
  end.
Definition vid (x : id * Z * bool) : id := fst (fst x).

Lemma nth_error_map_some {A B} (f : A -> B) l k y : nth_error (map f l) k = Some y <-> exists d, nth_error l k = Some d /\ f d = y.
Proof.
  rewrite nth_error_map. destruct (nth_error l k) as [d|]; cbn; split; [intros E; inversion E; eauto | intros (d' & E & <-); congruence | discriminate | intros (d' & E & _); discriminate].
Qed.
Lemma map_put {A B} (f : A -> B) k fresh d l : map f (put k fresh d l) = put k fresh (f d) (map f l).
Proof.
  unfold put. destruct fresh; [rewrite map_app; reflexivity|]. revert l. induction k as [|k IH]; intros [|y r]; cbn; try reflexivity. rewrite IH. reflexivity.
Qed.

(* the slot a record of [i] into slice [kd] goes to: the one the map holds for [i], or a new one when it holds none --
   attestations always take a new one (createAttestationElement does not consult the map) *)
Definition slotted (m : mid) (kd : kind) (i : id) (k : nat) (fresh : bool) : Prop :=
  (fresh = true /\ (kd = KAT \/ elem_idx m i = None)) \/ elem_idx m i = Some k.
(* a record of ID [i] into slice [kd]: the diff written at its slot shows (i, lf, fl); nothing else changes *)
Definition records (m m' : mid) (kd : kind) (i : id) (lf : Z) (fl : bool) : Prop :=
  exists k fresh, placed (view m kd) k fresh /\ slotted m kd i k fresh /\
    m_elements m' = els m i k fresh /\ view m' kd = put k fresh (i, lf, fl) (view m kd) /\ forall kd', kd' <> kd -> view m' kd' = view m kd'.

Lemma slice_records {A} (f : A -> id * Z * bool) m m' kd i k fresh (l : list A) d :
  slot m i l = Ok (k, fresh) -> vid (f d) = i -> view m kd = map f l -> view m' kd = map f (put k fresh d l) ->
  m_elements m' = els m i k fresh -> (forall kd', kd' <> kd -> view m' kd' = view m kd') ->
  records m m' kd i (snd (fst (f d))) (snd (f d)).
Proof.
  intros Sl <- V V' El Oth. exists k, fresh. rewrite V, V', map_put. split; [|split; [|destruct (f d) as [[? ?] ?]; auto]].
  - pose proof (slot_placed _ _ _ _ _ Sl) as P. unfold placed in *. rewrite map_length. exact P.
  - destruct (slot_cases _ _ _ _ _ Sl) as [(F & En & _)|(_ & Es & _)]; [left; auto | right; exact Es].
Qed.
Lemma with_sces_records m i k fresh d sp : slot m i (m_sces m) = Ok (k, fresh) -> sce_id (d_sce d) = i ->
  records m (with_sces m (put k fresh d (m_sces m)) (els m i k fresh) sp) KSC i (d_sc_leaf d) (d_sc_spent d).
Proof.
  intros Sl Ed. apply (slice_records (fun d => (sce_id (d_sce d), d_sc_leaf d, d_sc_spent d)) m _ KSC i k fresh (m_sces m) d Sl Ed); try reflexivity.
  intros [] Ne; try reflexivity; contradiction.
Qed.
Lemma with_sfes_records m i k fresh d sp : slot m i (m_sfes m) = Ok (k, fresh) -> sfe_id (d_sfe d) = i ->
  records m (with_sfes m (put k fresh d (m_sfes m)) (els m i k fresh) sp) KSF i (d_sf_leaf d) (d_sf_spent d).
Proof.
  intros Sl Ed. apply (slice_records (fun d => (sfe_id (d_sfe d), d_sf_leaf d, d_sf_spent d)) m _ KSF i k fresh (m_sfes m) d Sl Ed); try reflexivity.
  intros [] Ne; try reflexivity; contradiction.
Qed.
Lemma with_fces_records m i k fresh d sp pool : slot m i (m_fces m) = Ok (k, fresh) -> fce_id (d_fce d) = i ->
  records m (with_fces m (put k fresh d (m_fces m)) (els m i k fresh) sp pool) KFC i (d_fc_leaf d) (d_fc_resolved d).
Proof.
  intros Sl Ed. apply (slice_records (fun d => (fce_id (d_fce d), d_fc_leaf d, d_fc_resolved d)) m _ KFC i k fresh (m_fces m) d Sl Ed); try reflexivity.
  intros [] Ne; try reflexivity; contradiction.
Qed.
Lemma with_v2fces_records m i k fresh d sp pool : slot m i (m_v2fces m) = Ok (k, fresh) -> v2_id (d_v2 d) = i ->
  records m (with_v2fces m (put k fresh d (m_v2fces m)) (els m i k fresh) sp pool) KV2 i (d_v2_leaf d) (match d_v2_res d with Some _ => true | None => false end).
Proof.
  intros Sl Ed. apply (slice_records (fun d => (v2_id (d_v2 d), d_v2_leaf d, match d_v2_res d with Some _ => true | None => false end)) m _ KV2 i k fresh (m_v2fces m) d Sl Ed); try reflexivity.
  intros [] Ne; try reflexivity; contradiction.
Qed.
Lemma create_att_records m i : records m (create_att m i) KAT i UNASSIGNED false.
Proof.
  exists (length (m_aes m)), true. split; [left; split; [reflexivity | cbn [view]; rewrite map_length; reflexivity]|]. split; [left; auto|].
  split; [reflexivity|]. split; [cbn [view create_att m_aes put]; apply map_app | intros [] Ne; try reflexivity; contradiction].
Qed.

Lemma create_sce_records m i o mt m' : create_sce m i o mt = Ok m' -> exists fl, records m m' KSC i UNASSIGNED fl.
Proof. unfold create_sce. intros E. unrecord E k fr Sl. inversion E; subst. eexists. apply with_sces_records; [exact Sl | reflexivity]. Qed.
Lemma spend_sce_records m e lf tx m' : spend_sce m e lf tx = Ok m' -> records m m' KSC (sce_id e) lf true.
Proof. unfold spend_sce. intros E. unrecord E k fr Sl. inversion E; subst. apply with_sces_records; [exact Sl | reflexivity]. Qed.
Lemma create_sfe_records m i v a m' : create_sfe m i v a = Ok m' -> exists fl, records m m' KSF i UNASSIGNED fl.
Proof. unfold create_sfe. intros E. unrecord E k fr Sl. inversion E; subst. eexists. apply with_sfes_records; [exact Sl | reflexivity]. Qed.
Lemma spend_sfe_records m e lf tx m' : spend_sfe m e lf tx = Ok m' -> records m m' KSF (sfe_id e) lf true.
Proof. unfold spend_sfe. intros E. unrecord E k fr Sl. inversion E; subst. apply with_sfes_records; [exact Sl | reflexivity]. Qed.
Lemma create_fce_records m i fc tax m' : create_fce m i fc tax = Ok m' -> exists fl, records m m' KFC i UNASSIGNED fl.
Proof. unfold create_fce. intros E. unrecord E k fr Sl. inversion E; subst. eexists. apply with_fces_records; [exact Sl | reflexivity]. Qed.
Lemma create_v2_records m i fc m' : create_v2 m i fc = Ok m' -> exists fl, records m m' KV2 i UNASSIGNED fl.
Proof. unfold create_v2. intros E. unrecord E k fr Sl. inversion E; subst. eexists. apply with_v2fces_records; [exact Sl | reflexivity]. Qed.
Lemma resolve_v2_records m e lf kd tx m' : resolve_v2 m e lf kd tx = Ok m' -> records m m' KV2 (v2_id e) lf true.
Proof.
  unfold resolve_v2. intros E. unrecord E k fr Sl. destruct (d_v2_created _); [discriminate|]. inversion E; subst. apply with_v2fces_records; [exact Sl | reflexivity].
Qed.

Section Marks.
Variable kind_of : id -> kind.

Definition entry_id (m : mid) (kd : kind) (k : nat) : option id :=
  match kd with
  | KSC => option_map (fun d => sce_id (d_sce d)) (nth_error (m_sces m) k)
  | KSF => option_map (fun d => sfe_id (d_sfe d)) (nth_error (m_sfes m) k)
  | KFC => option_map (fun d => fce_id (d_fce d)) (nth_error (m_fces m) k)
  | KV2 => option_map (fun d => v2_id (d_v2 d)) (nth_error (m_v2fces m) k)
  | KAT => nth_error (m_aes m) k
  end.
Definition WK (m : mid) : Prop := forall i k, elem_idx m i = Some k -> entry_id m (kind_of i) k = Some i.

Lemma entry_id_view m kd k : entry_id m kd k = option_map vid (nth_error (view m kd) k).
Proof. destruct kd; cbn [entry_id view]; rewrite nth_error_map; destruct (nth_error _ k); reflexivity. Qed.
Lemma wk_new s : WK (new_mid s).
Proof. intros i k E. unfold elem_idx, new_mid in E. cbn in E. discriminate. Qed.

Lemma records_idx m m' kd i k fresh :
  slotted m kd i k fresh -> m_elements m' = els m i k fresh ->
  forall j, elem_idx m' j = if beq j i then Some k else elem_idx m j.
Proof. intros Hc El j. unfold elem_idx at 1. rewrite El. apply elem_idx_els. destruct Hc as [[F _]|Es]; auto. Qed.

(* under a consistent slot map the slot a record of [i] goes to is that of no other ID of its kind: a new slot is nobody's,
   and a slot the map holds carries one ID *)
Lemma slot_own m kd i k fresh j : WK m -> placed (view m kd) k fresh -> slotted m kd i k fresh ->
  kind_of i = kd -> kind_of j = kd -> elem_idx m j = Some k -> j = i.
Proof.
  intros W P Hc Ki Kj Ej. pose proof (W j k Ej) as Wj. rewrite entry_id_view, Kj in Wj.
  destruct P as [[_ ->]|[-> _]]; [rewrite (proj2 (nth_error_None _ _) (Nat.le_refl _)) in Wj; discriminate|].
  destruct Hc as [[]|Ei]; [discriminate|]. pose proof (W i k Ei) as Wi. rewrite entry_id_view, Ki in Wi. congruence.
Qed.

Lemma wk_records m m' kd i lf fl : WK m -> kind_of i = kd -> records m m' kd i lf fl -> WK m'.
Proof.
  intros W0 <- (k & fresh & P & Hc & El & Vw & Oth) j kj Ej. rewrite (records_idx m m' _ i k fresh Hc El) in Ej.
  rewrite entry_id_view. destruct (beq j i) eqn:B.
  - apply beq_eq in B. subst j. inversion Ej; subst kj. rewrite Vw, put_same by exact P. reflexivity.
  - pose proof (W0 j kj Ej) as W. rewrite entry_id_view in W. destruct (kind_dec (kind_of j) (kind_of i)) as [Ek|Nk]; [|rewrite Oth by exact Nk; exact W].
    rewrite Ek in W |- *. rewrite Vw, put_other; [exact W | exact P|]. intros ->.
    exact (beq_neq _ _ B (slot_own m _ i k fresh j W0 P Hc eq_refl Ek Ej)).
Qed.

(* a revision or a v1 resolution rewrites the diff it finds; under a consistent slot map that diff carries the same ID *)
Lemma slot_carries {A} m i (l : list A) k fresh dflt (f : A -> id) : WK m -> entry_id m (kind_of i) k = option_map f (nth_error l k) ->
  slot m i l = Ok (k, fresh) -> (fresh = true /\ nth k l dflt = dflt) \/ (fresh = false /\ nth_error l k = Some (nth k l dflt) /\ f (nth k l dflt) = i).
Proof.
  intros W Ev Sl. destruct (slot_cases _ _ _ _ _ Sl) as [(-> & _ & ->)|(-> & Es & L)]; [left; split; [reflexivity | apply nth_overflow; lia]|].
  right. split; [reflexivity|]. specialize (W i k Es). rewrite Ev in W. destruct (nth_error l k) as [x|] eqn:N; [|discriminate].
  rewrite (nth_error_nth _ _ dflt N). split; [reflexivity | cbn in W; congruence].
Qed.
Lemma revise_v2_records m e lf rev m' : WK m -> kind_of (v2_id e) = KV2 -> revise_v2 m e lf rev = Ok m' ->
  exists lf' fl, records m m' KV2 (v2_id e) lf' fl /\
    forall k x, elem_idx m (v2_id e) = Some k -> nth_error (view m KV2) k = Some x -> fl = snd x /\ (lf' = snd (fst x) \/ lf' = lf).
Proof.
  unfold revise_v2. intros W Ke E. unrecord E k fr Sl. inversion E; subst. clear E. set (old := nth k (m_v2fces m) dummy_v2fced) in *.
  destruct (slot_carries m (v2_id e) (m_v2fces m) k fr dummy_v2fced (fun d => v2_id (d_v2 d)) W ltac:(rewrite Ke; reflexivity) Sl) as [[-> Eo]|(-> & No & Io)]; fold old in Eo || fold old in No, Io.
  - rewrite Eo. cbn [d_v2_created d_v2_rev dummy_v2fced]. eexists; eexists. split; [apply with_v2fces_records; [exact Sl | reflexivity]|].
    intros k' x Es. destruct (slot_cases _ _ _ _ _ Sl) as [(_ & En & _)|(F & _)]; congruence.
  - eexists; eexists. split; [apply with_v2fces_records; [exact Sl | destruct (d_v2_created old); [exact Io|]; destruct (d_v2_rev old); [exact Io | reflexivity]]|].
    intros k' x Es Nx. destruct (slot_cases _ _ _ _ _ Sl) as [(F & _)|(_ & Es' & _)]; [discriminate|]. assert (k' = k) by congruence. subst k'.
    cbn [view] in Nx. rewrite nth_error_map, No in Nx. inversion Nx; subst x. cbn [fst snd].
    destruct (d_v2_created old); [cbn; auto|]. destruct (d_v2_rev old); cbn; auto.
Qed.
Lemma revise_fce_records m e lf rev m' : WK m -> kind_of (fce_id e) = KFC -> revise_fce m e lf rev = Ok m' -> exists lf' fl, records m m' KFC (fce_id e) lf' fl.
Proof.
  unfold revise_fce. intros W Ke E. cbv zeta in E. unrecord E k fr Sl. inversion E; subst. clear E. set (old := nth k (m_fces m) dummy_fced) in *.
  eexists; eexists. apply with_fces_records; [exact Sl|].
  destruct (slot_carries m (fce_id e) (m_fces m) k fr dummy_fced (fun d => fce_id (d_fce d)) W ltac:(rewrite Ke; reflexivity) Sl) as [[_ Eo]|(_ & _ & Io)]; fold old in Eo || fold old in Io.
  - rewrite Eo. reflexivity.
  - destruct (d_fc_created old); [exact Io|]. destruct (d_fc_rev old); [exact Io | reflexivity].
Qed.
Lemma resolve_fce_records m e lf valid tx m' : WK m -> kind_of (fce_id e) = KFC -> resolve_fce m e lf valid tx = Ok m' -> exists lf' fl, records m m' KFC (fce_id e) lf' fl.
Proof.
  unfold resolve_fce. intros W Ke E. unrecord E k fr Sl. inversion E; subst. clear E. set (old := nth k (m_fces m) dummy_fced) in *.
  eexists; eexists. apply with_fces_records; [exact Sl|]. cbn [d_fce].
  destruct (slot_carries m (fce_id e) (m_fces m) k fr dummy_fced (fun d => fce_id (d_fce d)) W ltac:(rewrite Ke; reflexivity) Sl) as [[_ Eo]|(_ & _ & Io)]; fold old in Eo || fold old in Io.
  - rewrite Eo. reflexivity.
  - destruct (d_fc_created old || _); [exact Io | reflexivity].
Qed.

Definition registered (kd : kind) (m : mid) : Prop :=
  forall k x, nth_error (view m kd) k = Some x -> elem_idx m (vid x) = Some k /\ kind_of (vid x) = kd.
Lemma registered_records kd m m' ki i lf fl : kd <> KAT -> registered kd m -> kind_of i = ki -> records m m' ki i lf fl -> registered kd m'.
Proof.
  intros Na Rg <- (k & fresh & P & Hc & El & Vw & Oth) k' x' N'. rewrite (records_idx m m' _ i k fresh Hc El).
  destruct (kind_dec kd (kind_of i)) as [->|Nk].
  - rewrite Vw in N'. destruct (Nat.eq_dec k' k) as [->|Ne].
    + rewrite put_same in N' by exact P. inversion N'; subst x'. cbn [vid fst]. rewrite beq_refl. auto.
    + rewrite put_other in N' by assumption. destruct (Rg k' x' N') as [E' K']. split; [|exact K'].
      destruct (beq (vid x') i) eqn:B; [|exact E']. apply beq_eq in B. rewrite B in E'. destruct Hc as [[_ [|En]]|Es]; congruence.
  - rewrite Oth in N' by exact Nk. destruct (Rg k' x' N') as [E' K']. split; [|exact K'].
    destruct (beq (vid x') i) eqn:B; [apply beq_eq in B; congruence | exact E'].
Qed.

Section Track.
Variable tid : id.
Variable tlf : Z.
Definition tracked (m : mid) : Prop :=
  exists k x, elem_idx m tid = Some k /\ nth_error (view m (kind_of tid)) k = Some x /\ snd (fst x) = tlf /\ snd x = true.
Lemma tracked_records m m' kd i lf fl : WK m -> kind_of i = kd -> records m m' kd i lf fl ->
  (i <> tid -> tracked m -> tracked m') /\ (i = tid -> lf = tlf -> fl = true -> tracked m').
Proof.
  intros W <- (k & fresh & P & Hc & El & Vw & Oth). pose proof (records_idx m m' _ i k fresh Hc El) as EI. split.
  - intros Ne (k0 & x0 & E0 & N0 & L0 & S0). exists k0, x0. rewrite EI, (beq_false tid i) by congruence. split; [exact E0|]. split; [|auto].
    destruct (kind_dec (kind_of tid) (kind_of i)) as [Ek|Nk]; [|rewrite Oth by exact Nk; exact N0].
    rewrite Ek in N0 |- *. rewrite Vw, put_other; [exact N0 | exact P|]. intros ->.
    exact (Ne (eq_sym (slot_own m _ i k fresh tid W P Hc eq_refl Ek E0))).
  - intros -> -> ->. exists k, (tid, tlf, true). rewrite EI, beq_refl, Vw, put_same by exact P. auto.
Qed.
End Track.

Variable id0 : id.
Variable lf0 : Z.
Hypothesis K0 : kind_of id0 = KSC.
Definition Tr (m : mid) : Prop :=
  exists k d, elem_idx m id0 = Some k /\ nth_error (m_sces m) k = Some d /\ d_sc_leaf d = lf0 /\ d_sc_spent d = true.
Definition Good (m : mid) : Prop := WK m /\ (is_spent m id0 = true -> Tr m).

Lemma tr_tracked m : Tr m <-> tracked id0 lf0 m.
Proof using K0.
  unfold Tr, tracked. rewrite K0. cbn [view]. split.
  - intros (k & d & E & N & L & S). exists k, (sce_id (d_sce d), d_sc_leaf d, d_sc_spent d). rewrite nth_error_map_some. eauto 6.
  - intros (k & x & E & N & L & S). apply nth_error_map_some in N. destruct N as (d & Nd & <-). eauto 6.
Qed.

Lemma rec_sc m i k fresh d sp : Good m -> kind_of i = KSC -> slot m i (m_sces m) = Ok (k, fresh) -> sce_id (d_sce d) = i ->
  let m' := with_sces m (put k fresh d (m_sces m)) (els m i k fresh) sp in
  WK m' /\ (i <> id0 -> Tr m -> Tr m') /\ (i = id0 -> d_sc_leaf d = lf0 -> d_sc_spent d = true -> Tr m').
Proof using K0.
  intros [W _] Ki Sl Ed m'. pose proof (with_sces_records m i k fresh d sp Sl Ed) as R.
  destruct (tracked_records id0 lf0 m m' _ i _ _ W Ki R) as [T1 T2]. rewrite !tr_tracked. split; [exact (wk_records _ _ _ _ _ _ W Ki R) | split; assumption].
Qed.
Lemma rec_sf m i k fresh (d : sfed) sp  : Good m -> kind_of i = KSF -> slot m i (m_sfes m) = Ok (k, fresh) -> (fun d => sfe_id (d_sfe d)) d = i ->
  let m' := with_sfes m (put k fresh d (m_sfes m)) (els m i k fresh) sp  in
  WK m' /\ (Tr m -> Tr m').
Proof using K0.
  intros [W _] Ki Sl Ed m'. pose proof (with_sfes_records m i k fresh d sp Sl Ed) as R.
  destruct (tracked_records id0 lf0 m m' _ i _ _ W Ki R) as [T1 _]. rewrite !tr_tracked. split; [exact (wk_records _ _ _ _ _ _ W Ki R) | apply T1; congruence].
Qed.
Lemma rec_v2 m i k fresh (d : v2fced) sp pool : Good m -> kind_of i = KV2 -> slot m i (m_v2fces m) = Ok (k, fresh) -> (fun d => v2_id (d_v2 d)) d = i ->
  let m' := with_v2fces m (put k fresh d (m_v2fces m)) (els m i k fresh) sp pool in
  WK m' /\ (Tr m -> Tr m').
Proof using K0.
  intros [W _] Ki Sl Ed m'. pose proof (with_v2fces_records m i k fresh d sp pool Sl Ed) as R.
  destruct (tracked_records id0 lf0 m m' _ i _ _ W Ki R) as [T1 _]. rewrite !tr_tracked. split; [exact (wk_records _ _ _ _ _ _ W Ki R) | apply T1; congruence].
Qed.

End Marks.
