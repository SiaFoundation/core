(* C02 for siafund elements: the invariant [good] of Marks2 read off the siafund slice -- the slot map is consistent, and
   once the element [id0] is on the spends map its diff sits in the slot the map names, with leaf [lf0] and the spent flag. *)
From Coq Require Import ZArith List Bool Lia.
From Sia Require Import Prim.Result Prim.Tok Policy.Model Ledger.Types Ledger.Mid Ledger.Validate Ledger.Apply Ledger.Proofs.
From Sia Require Import Ledger.Marks1 Ledger.Marks2.
Import ListNotations.
Open Scope Z_scope.

Section MarksSF.
Variable kind_of : id -> kind.
Notation WK := (WK kind_of).
Variable id0 : id.
Variable lf0 : Z.
Hypothesis K0 : kind_of id0 = KSF.
Definition Tr (m : mid) : Prop :=
  exists k d, elem_idx m id0 = Some k /\ nth_error (m_sfes m) k = Some d /\ d_sf_leaf d = lf0 /\ d_sf_spent d = true.
Definition Good (m : mid) : Prop := WK m /\ (is_spent m id0 = true -> Tr m).

Lemma good_sf m : Good m <-> good kind_of id0 lf0 m.
Proof using K0.
  unfold Good, good, Tr, tracked. rewrite K0. cbn [view]. split; intros [W T]; (split; [exact W|]); intros S; destruct (T S) as (k & y & E & N & L & F).
  - exists k, (sfe_id (d_sfe y), d_sf_leaf y, d_sf_spent y). rewrite nth_error_map_some. eauto 6.
  - apply nth_error_map_some in N. destruct N as (d & Nd & <-). eauto 6.
Qed.
End MarksSF.
