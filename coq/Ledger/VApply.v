(* What ValidateBlock has executed, ApplyBlock executes again: the MidState application reaches through the block's
   transactions is the one validation reached, so that phase of ApplyBlock neither fails nor panics on an accepted block
   ([accepted_transactions_apply]). Hence an invariant of the MidState need only be kept by the records of transactions
   that validation has seen ([presented]): [accepted_block_keeps]. *)
From Coq Require Import ZArith List Bool Lia.
From Sia Require Import Prim.Result Prim.Tok Policy.Model Ledger.Types Ledger.Mid Ledger.Validate Ledger.Apply Ledger.Proofs Ledger.Spends.
Import ListNotations.
Open Scope Z_scope.

Section VApply.
Variable H : bytes -> bytes.
Variable net : lnetwork.
Variable vt : vtab.
Variable pt : ptab.
Variable se sd : bytes.

Lemma validate_txns1_applies s : forall ts us m m', validate_txns1 H net vt se sd s m ts us = Ok m' -> apply_txns1 net s m ts us = Ok m'.
Proof.
  induction ts as [|t r IH]; intros us m m' E; cbn [validate_txns1 apply_txns1] in *; [exact E|].
  destruct us as [|u ur]; [discriminate|]. apply bind_ok in E. destruct E as ([] & _ & E). apply bind_ok in E. destruct E as (m1 & A & E).
  rewrite A. cbn [bind]. apply IH. exact E.
Qed.
Lemma validate_txns2_applies s : forall txns m m', fold_r (vstep H net vt pt se sd s) txns m = Ok m' -> fold_r (apply_txn2 net s) txns m = Ok m'.
Proof.
  induction txns as [|t r IH]; intros m m' E; cbn [fold_r] in *; [exact E|].
  apply bind_ok in E. destruct E as (m1 & E1 & E). unfold vstep in E1. apply bind_ok in E1. destruct E1 as ([] & _ & A).
  rewrite A. cbn [bind]. apply IH. exact E.
Qed.

Lemma apply_block_ok s b s' m : apply_block net s b = Ok (s', m) ->
  mid_apply_block net s (new_mid s) b = Ok m /\ s_leaves s' = apply_leaves (s_leaves s) (leaf_updates s m b).
Proof. unfold apply_block. intros A. apply bind_ok in A. destruct A as (m0 & Am & A). inversion A; subst. split; [exact Am | reflexivity]. Qed.

Lemma vstep_presented s txns : forall m m', fold_r (vstep H net vt pt se sd s) txns m = Ok m' -> Forall (presented s) txns.
Proof.
  induction txns as [|t r IH]; intros m m' E; [constructor|]. cbn [fold_r] in E. apply bind_ok in E. destruct E as (m1 & E1 & E).
  unfold vstep in E1. apply bind_ok in E1. destruct E1 as ([] & V & _).
  constructor; [exact (validate_presented H net vt pt se sd s m t V) | exact (IH _ _ E)].
Qed.

Lemma accepted_presented s b t : validate_block H net vt pt se sd s b = Ok tt -> In t (b_v2txns b) -> presented s t.
Proof.
  intros V Ht. destruct (validate_block_ok H net vt pt se sd s b V) as (_ & _ & m1 & m2 & _ & V2).
  exact (proj1 (Forall_forall _ _) (vstep_presented s _ _ _ V2) t Ht).
Qed.

Lemma accepted_block_keeps (I : mid -> Prop) s b s' m : validate_block H net vt pt se sd s b = Ok tt -> apply_block net s b = Ok (s', m) ->
  I (new_mid s) -> keeps I (fun m => apply_txns1 net s m (b_txns b) (b_supp b)) ->
  (forall t, In t (b_v2txns b) -> presented s t -> keeps I (fun m => apply_txn2 net s m t)) ->
  keeps I (block_tail net s b) -> I m.
Proof.
  intros V A I0 K1 K2 K3. destruct (mid_apply_block_ok net s b _ _ (proj1 (apply_block_ok s b s' m A))) as (m1 & m2 & A1 & A2 & A3).
  refine (K3 _ _ A3 (keeps_fold I _ _ _ _ _ A2 (K1 _ _ A1 I0))). intros t Ht. exact (K2 t Ht (accepted_presented s b t V Ht)).
Qed.
Lemma accepted_v2_block_keeps (I : mid -> Prop) s b s' m : validate_block H net vt pt se sd s b = Ok tt -> apply_block net s b = Ok (s', m) ->
  b_txns b = [] -> b_expiring b = [] -> I (new_mid s) ->
  (forall t, In t (b_v2txns b) -> presented s t -> keeps I (fun m => apply_txn2 net s m t)) ->
  (forall i o mt, In i (map fst (b_payouts b)) \/ i = b_foundation_id b -> keeps I (fun m => create_sce m i o mt)) -> I m.
Proof.
  intros V A T0 X0 I0 K2 Kc. apply (accepted_block_keeps I s b s' m V A I0); [rewrite T0; apply apply_txns1_nil_keeps | exact K2|].
  apply block_tail_keeps; [intros p Hp; apply Kc; left; exact (in_map fst _ p Hp) | intros o; apply Kc; right; reflexivity | rewrite X0; intros ? []].
Qed.

Theorem accepted_transactions_apply s b : validate_block H net vt pt se sd s b = Ok tt ->
  exists m1 m2, validate_txns1 H net vt se sd s (new_mid s) (b_txns b) (b_supp b) = Ok m1 /\
                apply_txns1 net s (new_mid s) (b_txns b) (b_supp b) = Ok m1 /\
                fold_r (vstep H net vt pt se sd s) (b_v2txns b) m1 = Ok m2 /\
                fold_r (apply_txn2 net s) (b_v2txns b) m1 = Ok m2.
Proof.
  intros V. destruct (validate_block_ok H net vt pt se sd s b V) as (_ & _ & m1 & m2 & E1 & E2). exists m1, m2.
  split; [exact E1|]. split; [apply validate_txns1_applies; exact E1|]. split; [exact E2 | apply validate_txns2_applies; exact E2].
Qed.
End VApply.
