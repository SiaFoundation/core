(* C02: applying an accepted block marks the leaves it consumed as spent: the block-level statement for an element of any
   kind ([consumed_marked]), and its siacoin case. *)
From Coq Require Import ZArith List Bool Lia.
From Sia Require Import Prim.Result Prim.Tok Policy.Model Ledger.Types Ledger.Mid Ledger.Validate Ledger.Apply Ledger.Proofs Ledger.Spends Ledger.VApply Ledger.Persist.
From Sia Require Import Ledger.Marks1 Ledger.Marks2.
Import ListNotations.
Open Scope Z_scope.

Lemma apply_leaves_marks ups : forall ls k, (k < length ls)%nat ->
  (SpentAt ls k \/ exists u, In u ups /\ fst u <> UNASSIGNED /\ Z.to_nat (fst u) = k /\ l_spent (snd u) = true) ->
  (forall u, In u ups -> fst u <> UNASSIGNED -> Z.to_nat (fst u) = k -> l_spent (snd u) = true) ->
  SpentAt (apply_leaves ls ups) k.
Proof. exact (apply_leaves_last ups). Qed.

Lemma view_updates s m b kd x : kd <> KAT -> In x (view m kd) ->
  exists u, In u (leaf_updates s m b) /\ fst u = snd (fst x) /\ l_spent (snd u) = snd x.
Proof.
  intros Na Hin. unfold leaf_updates. destruct kd; [| | | |contradiction]; cbn [view] in Hin; apply in_map_iff in Hin; destruct Hin as (d & <- & Hd);
    eexists; rewrite !in_app_iff.
  - split; [left; exact (in_map _ _ d Hd) | split; reflexivity].
  - split; [right; left; exact (in_map _ _ d Hd) | split; reflexivity].
  - split; [do 2 right; left; exact (in_map _ _ d Hd) | split; reflexivity].
  - split; [do 3 right; left; exact (in_map _ _ d Hd) | split; reflexivity].
Qed.

Section Block.
Variable H : bytes -> bytes.
Variable net : lnetwork.
Variable vt : vtab.
Variable pt : ptab.
Variable se sd : bytes.
Variable s : lstate.
Variable kind_of : id -> kind.
Variable tid : id.
Variable tlf : Z.
Notation good := (good kind_of tid tlf).
Notation ids_ok := (ids_ok kind_of tid tlf).

Lemma txns_entered txns t0 : In t0 txns -> In tid (sci_ids t0 ++ sfi_ids t0 ++ res_ids t0) ->
  forall m m', fold_r (apply_txn2 net s) txns m = Ok m' -> is_spent m' tid = true.
Proof.
  intros Hin Hid. induction txns as [|t r IH]; intros m m' E; [destruct Hin|]. cbn [fold_r] in E. apply bind_ok in E. destruct E as (m1 & E1 & E).
  destruct Hin as [->|Hin]; [|apply (IH Hin m1 m' E)].
  destruct (apply_txn2_spends net s m t0 m1 E1) as [_ F]. rewrite Forall_forall in F. refine (spent_mono m1 m' tid _ (F tid Hid)).
  refine (fold_r_ext _ _ _ _ _ E). intros m0 x m0' Ex. exact (proj1 (apply_txn2_spends net s m0 x m0' Ex)).
Qed.
Lemma block_entered b s' m t0 : apply_block net s b = Ok (s', m) -> In t0 (b_v2txns b) -> In tid (sci_ids t0 ++ sfi_ids t0 ++ res_ids t0) ->
  is_spent m tid = true.
Proof.
  intros A Ht0 Hid. destruct (mid_apply_block_ok net s b _ _ (proj1 (apply_block_ok net s b s' m A))) as (m1 & m2 & _ & A2 & A3).
  exact (spent_mono m2 m tid (block_tail_ext net s b _ _ A3) (txns_entered _ t0 Ht0 Hid _ _ A2)).
Qed.

(* an accepted v2-only block, applied: the leaf of the element it consumed is spent afterwards, given an invariant [I] of
   the records of the block which says where the diff of an entered element sits, and that every other write to that
   leaf index is a spend *)
Lemma consumed_marked (I : mid -> Prop) b s' m t0 :
  validate_block H net vt pt se sd s b = Ok tt -> apply_block net s b = Ok (s', m) -> b_txns b = [] -> b_expiring b = [] ->
  I (new_mid s) ->
  (forall t, In t (b_v2txns b) -> presented s t -> keeps I (fun m => apply_txn2 net s m t)) ->
  (forall i o mt, In i (map fst (b_payouts b)) \/ i = b_foundation_id b -> keeps I (fun m => create_sce m i o mt)) ->
  (forall m, I m -> is_spent m tid = true -> tracked kind_of tid tlf m) ->
  In t0 (b_v2txns b) -> In tid (sci_ids t0 ++ sfi_ids t0 ++ res_ids t0) -> kind_of tid <> KAT -> tlf <> UNASSIGNED ->
  (Z.to_nat tlf < length (s_leaves s))%nat ->
  (I m -> Inv s m -> tracked kind_of tid tlf m ->
   forall u, In u (leaf_updates s m b) -> fst u <> UNASSIGNED -> Z.to_nat (fst u) = Z.to_nat tlf -> l_spent (snd u) = true) ->
  SpentAt (s_leaves s') (Z.to_nat tlf).
Proof.
  intros V A T0 X0 I0 Ktx Kc Tr Ht0 Hid Na Nun Lk Others.
  pose proof (accepted_v2_block_keeps H net vt pt se sd I s b s' m V A T0 X0 I0 Ktx Kc) as Gm.
  pose proof (Tr m Gm (block_entered b s' m t0 A Ht0 Hid)) as Tm. pose proof Tm as (k & x & _ & Nx & Lx & Fx).
  destruct (view_updates s m b _ x Na (nth_error_In _ _ Nx)) as (u & Hu & Eu & Su).
  rewrite (proj2 (apply_block_ok net s b s' m A)). apply apply_leaves_marks; [exact Lk | | exact (Others Gm (accepted_inv H net vt pt se sd s b s' m V A T0 X0) Tm)].
  right. exists u. rewrite Eu, Lx, Su. auto.
Qed.

Lemma leaf_updates_other m b k e : Inv s m -> nth_error (s_leaves s) k = Some {| l_elem := e; l_spent := false |} -> (forall x, e <> EV2 x) ->
  forall u, In u (leaf_updates s m b) -> fst u <> UNASSIGNED -> Z.to_nat (fst u) = k -> l_spent (snd u) = true.
Proof.
  intros Im N0 Nv u Hin Ne Ek.
  destruct (leaf_updates_cases s (fun _ => False) ltac:(intros ? []) m b u (proj1 (inv_entries s m) Im) Hin Ne) as [T|[(d & e' & [] & _)|(d & _ & _ & _ & e' & Lv)]]; [exact T|].
  rewrite Ek, N0 in Lv. inversion Lv. destruct (Nv e'). congruence.
Qed.

(* the case of an invariant that is [good] alone and a leaf that holds no v2 contract: what the ID derivation provides for
   the block *)
Lemma consumed_marked_good b s' m t0 e :
  validate_block H net vt pt se sd s b = Ok tt -> apply_block net s b = Ok (s', m) -> b_txns b = [] -> b_expiring b = [] ->
  Forall ids_ok (b_v2txns b) ->
  Forall (fun p : id * sco => kind_of (fst p) = KSC /\ fst p <> tid) (b_payouts b) -> kind_of (b_foundation_id b) = KSC -> b_foundation_id b <> tid ->
  In t0 (b_v2txns b) -> In tid (sci_ids t0 ++ sfi_ids t0 ++ res_ids t0) -> kind_of tid <> KAT -> tlf <> UNASSIGNED ->
  unspent_at s tlf e -> (forall x, e <> EV2 x) -> SpentAt (s_leaves s') (Z.to_nat tlf).
Proof.
  intros V A T0 X0 Otx Opay Kf Nf Ht0 Hid Na Nun Mem Nv. rewrite Forall_forall in Otx, Opay.
  apply (consumed_marked good b s' m t0 V A T0 X0); try assumption.
  - apply good_new.
  - intros t Ht _. apply apply_txn2_keeps_good, Otx, Ht.
  - intros i o mt [Hi| ->]; [apply in_map_iff in Hi; destruct Hi as (p & <- & Hp); destruct (Opay p Hp) | ]; apply create_sce_good; assumption.
  - intros m0 G. exact (proj2 G).
  - apply nth_error_Some. unfold unspent_at in Mem. congruence.
  - intros _ Im _. exact (leaf_updates_other m b _ e Im Mem Nv).
Qed.
End Block.

Section Marks3.
Variable H : bytes -> bytes.
Variable net : lnetwork.
Variable vt : vtab.
Variable pt : ptab.
Variable se sd : bytes.
Variable s : lstate.
Variable kind_of : id -> kind.
Variable id0 : id.
Variable lf0 : Z.
Hypothesis K0 : kind_of id0 = KSC.
Notation TxOK := (Marks2.TxOK kind_of id0 lf0).

(* an accepted v2-only block, applied: the leaf of every siacoin input with an assigned leaf index is spent afterwards --
   provided IDs name elements of one kind only ([kind_of]) and nothing in the block is created under the consumed ID *)
Theorem consumed_leaf_marked b s' m t0 i0 :
  validate_block H net vt pt se sd s b = Ok tt -> apply_block net s b = Ok (s', m) -> b_txns b = [] -> b_expiring b = [] ->
  Forall TxOK (b_v2txns b) ->
  Forall (fun p : id * sco => kind_of (fst p) = KSC /\ fst p <> id0) (b_payouts b) -> kind_of (b_foundation_id b) = KSC -> b_foundation_id b <> id0 ->
  In t0 (b_v2txns b) -> In i0 (t2_sci t0) -> sce_id (p_val (i2_parent i0)) = id0 -> p_leaf (i2_parent i0) = lf0 -> lf0 <> UNASSIGNED ->
  SpentAt (s_leaves s') (Z.to_nat lf0).
Proof using K0.
  intros V A T0 X0 Otx Opay Kf Nf Ht0 Hi0 Eid Elf Nun.
  destruct (accepted_presented H net vt pt se sd s b t0 V Ht0) as (P1 & _). rewrite Forall_forall in P1.
  apply (consumed_marked_good H net vt pt se sd s kind_of id0 lf0 b s' m t0 (ESC (p_val (i2_parent i0))) V A T0 X0); try assumption.
  - eapply Forall_impl; [|exact Otx]. exact (txok_ids kind_of id0 lf0 K0).
  - apply in_or_app. left. unfold sci_ids. apply in_map_iff. exists i0. split; assumption.
  - rewrite K0. discriminate.
  - destruct (P1 i0 Hi0); congruence.
  - discriminate.
Qed.
End Marks3.
