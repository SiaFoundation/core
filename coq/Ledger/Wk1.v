(* C10: on a block whose IDs name elements of one kind only, the MidState's shared slot map stays consistent, so no record
   ever runs outside its slice: the out-of-range panic of record*Element is unreachable. *)
From Coq Require Import ZArith List Bool Lia.
From Sia Require Import Prim.Result Prim.Tok Policy.Model Ledger.Types Ledger.Mid Ledger.Validate Ledger.Apply Ledger.Proofs Ledger.Marks1.
Import ListNotations.
Open Scope Z_scope.

Section Wk.
Variable kind_of : id -> kind.
Notation WK := (Marks1.WK kind_of).
Notation entry_id := Marks1.entry_id.

Lemma wk_sc m i k fresh (d : sced) sp  : WK m -> kind_of i = KSC -> slot m i (m_sces m) = Ok (k, fresh) -> (fun d => sce_id (d_sce d)) d = i ->
  WK (with_sces m (put k fresh d (m_sces m)) (els m i k fresh) sp ).
Proof. intros W Ki Sl Ed. exact (wk_records kind_of _ _ _ _ _ _ W Ki (with_sces_records m i k fresh d sp Sl Ed)). Qed.
Lemma wk_sf m i k fresh (d : sfed) sp  : WK m -> kind_of i = KSF -> slot m i (m_sfes m) = Ok (k, fresh) -> (fun d => sfe_id (d_sfe d)) d = i ->
  WK (with_sfes m (put k fresh d (m_sfes m)) (els m i k fresh) sp ).
Proof. intros W Ki Sl Ed. exact (wk_records kind_of _ _ _ _ _ _ W Ki (with_sfes_records m i k fresh d sp Sl Ed)). Qed.
Lemma wk_fc m i k fresh (d : fced) sp pool : WK m -> kind_of i = KFC -> slot m i (m_fces m) = Ok (k, fresh) -> (fun d => fce_id (d_fce d)) d = i ->
  WK (with_fces m (put k fresh d (m_fces m)) (els m i k fresh) sp pool).
Proof. intros W Ki Sl Ed. exact (wk_records kind_of _ _ _ _ _ _ W Ki (with_fces_records m i k fresh d sp pool Sl Ed)). Qed.
Lemma wk_v2 m i k fresh (d : v2fced) sp pool : WK m -> kind_of i = KV2 -> slot m i (m_v2fces m) = Ok (k, fresh) -> (fun d => v2_id (d_v2 d)) d = i ->
  WK (with_v2fces m (put k fresh d (m_v2fces m)) (els m i k fresh) sp pool).
Proof. intros W Ki Sl Ed. exact (wk_records kind_of _ _ _ _ _ _ W Ki (with_v2fces_records m i k fresh d sp pool Sl Ed)). Qed.

(* under the invariant a slot lookup for an ID never runs outside the slice of its kind *)
Lemma slot_ok {A} m i (l : list A) (f : A -> id) : WK m -> (forall k, entry_id m (kind_of i) k = option_map f (nth_error l k)) ->
  exists k fresh, slot m i l = Ok (k, fresh).
Proof.
  intros W Ev. unfold slot. destruct (elem_idx m i) as [k|] eqn:E; [|eexists; eexists; reflexivity].
  pose proof (W i k E) as Wi. rewrite Ev in Wi. destruct (nth_error l k) eqn:N; [|discriminate].
  assert (k < length l)%nat by (apply nth_error_Some; congruence). destruct (Nat.ltb_spec k (length l)); [|lia]. eexists; eexists; reflexivity.
Qed.
Lemma slot_ok_sc m i : WK m -> kind_of i = KSC -> exists k fresh, slot m i (m_sces m) = Ok (k, fresh).
Proof. intros W Ki. apply (slot_ok m i _ (fun d => sce_id (d_sce d)) W). rewrite Ki. reflexivity. Qed.
Lemma slot_ok_sf m i : WK m -> kind_of i = KSF -> exists k fresh, slot m i (m_sfes m) = Ok (k, fresh).
Proof. intros W Ki. apply (slot_ok m i _ (fun d => sfe_id (d_sfe d)) W). rewrite Ki. reflexivity. Qed.
Lemma slot_ok_fc m i : WK m -> kind_of i = KFC -> exists k fresh, slot m i (m_fces m) = Ok (k, fresh).
Proof. intros W Ki. apply (slot_ok m i _ (fun d => fce_id (d_fce d)) W). rewrite Ki. reflexivity. Qed.
Lemma slot_ok_v2 m i : WK m -> kind_of i = KV2 -> exists k fresh, slot m i (m_v2fces m) = Ok (k, fresh).
Proof. intros W Ki. apply (slot_ok m i _ (fun d => v2_id (d_v2 d)) W). rewrite Ki. reflexivity. Qed.
End Wk.
