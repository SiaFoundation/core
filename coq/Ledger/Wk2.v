(* C10: an accepted block whose IDs name elements of one kind only is applied without error or panic. *)
From Coq Require Import ZArith List Bool Lia.
From Sia Require Import Prim.Result Prim.Tok Policy.Model Ledger.Types Ledger.Mid Ledger.Validate Ledger.Apply Ledger.Proofs Ledger.Spends Ledger.Persist Ledger.VApply Ledger.Marks1.
From Sia Require Import Ledger.Wk1.
Import ListNotations.
Open Scope Z_scope.

Section Wk2.
Variable kind_of : id -> kind.
Notation WK := (Marks1.WK kind_of).

Definition Kinds2 (t : txn2) : Prop :=
  Forall (fun i => kind_of (sce_id (p_val (i2_parent i))) = KSC) (t2_sci t) /\
  Forall (fun x : id * sco => kind_of (fst x) = KSC) (t2_sco t) /\
  Forall (fun i => kind_of (sfe_id (p_val (f2_parent i))) = KSF /\ kind_of (f2_claim_id i) = KSC) (t2_sfi t) /\
  Forall (fun x : id * (Z * bytes) => kind_of (fst x) = KSF) (t2_sfo t) /\
  Forall (fun x : id * fc2 => kind_of (fst x) = KV2) (t2_fc t) /\
  Forall (fun rv => kind_of (v2_id (p_val (r2_parent rv))) = KV2) (t2_rev t) /\
  Forall (fun rs => kind_of (v2_id (p_val (rs_parent rs))) = KV2 /\ kind_of (rs_renter_id rs) = KSC /\ kind_of (rs_host_id rs) = KSC /\
                    (forall rn, rs_res rs = RRenewal rn -> kind_of (rn_new_id rn) = KV2)) (t2_res t) /\
  Forall (fun a => kind_of (at_id a) = KAT) (t2_att t).
Definition Kinds1 (t : txn1) : Prop :=
  Forall (fun i => kind_of (i1_parent i) = KSC) (t1_sci t) /\
  Forall (fun x : id * sco => kind_of (fst x) = KSC) (t1_sco t) /\
  Forall (fun i => kind_of (f1_parent i) = KSF /\ kind_of (f1_claim_id i) = KSC) (t1_sfi t) /\
  Forall (fun x : id * (Z * bytes) => kind_of (fst x) = KSF) (t1_sfo t) /\
  Forall (fun x : id * fc1 * Z => kind_of (fst (fst x)) = KFC) (t1_fc t) /\
  Forall (fun rv => kind_of (r1_parent rv) = KFC) (t1_rev t) /\
  Forall (fun sp => kind_of (s1_parent sp) = KFC /\ Forall (fun i => kind_of i = KSC) (s1_valid_ids sp)) (t1_sp t).

(* every record keeps the slot map consistent, together with any [J] that records of well-kinded IDs keep *)
Section With.
Variable J : mid -> Prop.
Hypothesis J_records : forall m m' kd i lf fl, J m -> kind_of i = kd -> records m m' kd i lf fl -> J m'.
Hypothesis J_foundation : forall m a b, J m -> J (with_foundation m a b).
Definition wkj (m : mid) : Prop := WK m /\ J m.

Lemma wkj_records m m' kd i lf fl : wkj m -> kind_of i = kd -> records m m' kd i lf fl -> wkj m'.
Proof. intros [W Jm] K R. split; [exact (wk_records kind_of _ _ _ _ _ _ W K R) | exact (J_records _ _ _ _ _ _ Jm K R)]. Qed.

Lemma spend_sce_wk e lf tx : kind_of (sce_id e) = KSC -> keeps wkj (fun m => spend_sce m e lf tx).
Proof. intros K m m' E G. exact (wkj_records _ _ _ _ _ _ G K (spend_sce_records _ _ _ _ _ E)). Qed.
Lemma create_sce_wk i o mt : kind_of i = KSC -> keeps wkj (fun m => create_sce m i o mt).
Proof. intros K m m' E G. destruct (create_sce_records _ _ _ _ _ E) as [fl R]. exact (wkj_records _ _ _ _ _ _ G K R). Qed.
Lemma spend_sfe_wk e lf tx : kind_of (sfe_id e) = KSF -> keeps wkj (fun m => spend_sfe m e lf tx).
Proof. intros K m m' E G. exact (wkj_records _ _ _ _ _ _ G K (spend_sfe_records _ _ _ _ _ E)). Qed.
Lemma create_sfe_wk i v a : kind_of i = KSF -> keeps wkj (fun m => create_sfe m i v a).
Proof. intros K m m' E G. destruct (create_sfe_records _ _ _ _ _ E) as [fl R]. exact (wkj_records _ _ _ _ _ _ G K R). Qed.
Lemma create_fce_wk i fc tax : kind_of i = KFC -> keeps wkj (fun m => create_fce m i fc tax).
Proof. intros K m m' E G. destruct (create_fce_records _ _ _ _ _ E) as [fl R]. exact (wkj_records _ _ _ _ _ _ G K R). Qed.
Lemma revise_fce_wk e lf rev : kind_of (fce_id e) = KFC -> keeps wkj (fun m => revise_fce m e lf rev).
Proof. intros K m m' E G. destruct (revise_fce_records kind_of _ _ _ _ _ (proj1 G) K E) as (lf' & fl & R). exact (wkj_records _ _ _ _ _ _ G K R). Qed.
Lemma resolve_fce_wk e lf valid tx : kind_of (fce_id e) = KFC -> keeps wkj (fun m => resolve_fce m e lf valid tx).
Proof. intros K m m' E G. destruct (resolve_fce_records kind_of _ _ _ _ _ _ (proj1 G) K E) as (lf' & fl & R). exact (wkj_records _ _ _ _ _ _ G K R). Qed.
Lemma create_v2_wk i fc : kind_of i = KV2 -> keeps wkj (fun m => create_v2 m i fc).
Proof. intros K m m' E G. destruct (create_v2_records _ _ _ _ E) as [fl R]. exact (wkj_records _ _ _ _ _ _ G K R). Qed.
Lemma revise_v2_wk e lf rev : kind_of (v2_id e) = KV2 -> keeps wkj (fun m => revise_v2 m e lf rev).
Proof. intros K m m' E G. destruct (revise_v2_records kind_of _ _ _ _ _ (proj1 G) K E) as (lf' & fl & R & _). exact (wkj_records _ _ _ _ _ _ G K R). Qed.
Lemma resolve_v2_wk e lf kd tx : kind_of (v2_id e) = KV2 -> keeps wkj (fun m => resolve_v2 m e lf kd tx).
Proof. intros K m m' E G. exact (wkj_records _ _ _ _ _ _ G K (resolve_v2_records _ _ _ _ _ _ E)). Qed.
Lemma create_att_wk i m : kind_of i = KAT -> wkj m -> wkj (create_att m i).
Proof. intros K G. exact (wkj_records _ _ _ _ _ _ G K (create_att_records m i)). Qed.

Lemma apply_txn2_wkj net s t : Kinds2 t -> keeps wkj (fun m => apply_txn2 net s m t).
Proof.
  intros (O1 & O2 & O3 & O4 & O5 & O6 & O7 & O8). rewrite Forall_forall in O1, O2, O3, O4, O5, O6, O7, O8. apply apply_txn2_keeps.
  - intros i Hi. apply spend_sce_wk, O1, Hi.
  - intros x Hx. apply create_sce_wk, O2, Hx.
  - intros i Hi. destruct (O3 i Hi). split; [apply spend_sfe_wk | intros o; apply create_sce_wk]; assumption.
  - intros x Hx. apply create_sfe_wk, O4, Hx.
  - intros x Hx. apply create_v2_wk, O5, Hx.
  - intros rv Hr. apply revise_v2_wk, O6, Hr.
  - intros rs Hr. destruct (O7 rs Hr) as (? & ? & ? & Kn). split; [intros kd; apply resolve_v2_wk; assumption|].
    split; [intros rn Er; apply create_v2_wk, (Kn rn Er)|]. split; intros o; apply create_sce_wk; assumption.
  - intros a m Ha. apply create_att_wk, O8, Ha.
  - intros m a b [W Jm]. split; [exact W | apply J_foundation, Jm].
Qed.

Lemma combine_kinds {B} ids (l : list B) : Forall (fun i => kind_of i = KSC) ids -> forall io, In io (combine ids l) -> kind_of (fst io) = KSC.
Proof. intros F io Hin. rewrite Forall_forall in F. apply F. destruct io. exact (in_combine_l _ _ _ _ Hin). Qed.
Lemma apply_txn1_wkj net s t ts : Kinds1 t -> keeps wkj (fun m => apply_txn1 net s m t ts).
Proof.
  intros (O1 & O2 & O3 & O4 & O5 & O6 & O7). rewrite Forall_forall in O1, O2, O3, O4, O5, O6, O7. apply apply_txn1_keeps.
  - intros i m e lf Hi G Se m' E. refine (spend_sce_wk e lf _ _ m m' E G). rewrite (sc_element_id _ _ _ _ _ Se). exact (O1 i Hi).
  - intros x Hx. apply create_sce_wk, O2, Hx.
  - intros i m e lf Hi G Se. destruct (O3 i Hi) as [Kp Kc]. split; [|intros o; apply create_sce_wk, Kc].
    intros m' E. refine (spend_sfe_wk e lf _ _ m m' E G). rewrite (sf_element_id _ _ _ _ _ Se). exact Kp.
  - intros x Hx. apply create_sfe_wk, O4, Hx.
  - intros x Hx tax. apply create_fce_wk, (O5 x Hx).
  - intros rv m e lf Hr G Fe m' E. refine (revise_fce_wk e lf _ _ m m' E G). rewrite (fc_element_id _ _ _ _ _ Fe). exact (O6 rv Hr).
  - intros sp m e lf Hs G Fe. destruct (O7 sp Hs) as [Kx Kv]. split; [|intros io Hio; apply create_sce_wk, (combine_kinds _ _ Kv io Hio)].
    intros m' E. refine (resolve_fce_wk e lf _ _ _ m m' E G). rewrite (fc_element_id _ _ _ _ _ Fe). exact Kx.
  - intros m a b [W Jm]. split; [exact W | apply J_foundation, Jm].
Qed.
End With.

Lemma apply_txn1_wk net s m t ts m' : Kinds1 t -> apply_txn1 net s m t ts = Ok m' -> WK m -> WK m'.
Proof.
  intros K E W. refine (proj1 (apply_txn1_wkj (fun _ => True) _ _ net s t ts K m m' E (conj W I))); auto.
Qed.

Definition KindsB (b : lblock) : Prop :=
  Forall Kinds1 (b_txns b) /\ Forall Kinds2 (b_v2txns b) /\
  Forall (fun p : id * sco => kind_of (fst p) = KSC) (b_payouts b) /\ kind_of (b_foundation_id b) = KSC /\
  Forall (fun pe : pres fce1 * list id => kind_of (fce_id (p_val (fst pe))) = KFC /\ Forall (fun i => kind_of i = KSC) (snd pe)) (b_expiring b).

Lemma keeps_wk (f : mid -> R mid) : keeps (wkj (fun _ => True)) f -> keeps WK f.
Proof. intros K m m' E W. exact (proj1 (K m m' E (conj W I))). Qed.

(* under the invariant the two records of the block's tail, a siacoin creation and the resolution of an expiring v1 contract,
   cannot fail for well-kinded IDs: their slot is inside the slice *)
Lemma create_sce_succeeds i o mt : kind_of i = KSC -> succeeds WK (fun m => create_sce m i o mt).
Proof.
  intros K. apply keeps_succeeds; [apply keeps_wk, create_sce_wk; auto|]. intros m W. unfold create_sce.
  destruct (slot_ok_sc kind_of m i W K) as (k & f & ->). eexists. reflexivity.
Qed.
Lemma resolve_fce_succeeds e lf valid tx : kind_of (fce_id e) = KFC -> succeeds WK (fun m => resolve_fce m e lf valid tx).
Proof.
  intros K. apply keeps_succeeds; [apply keeps_wk, resolve_fce_wk; auto|]. intros m W. unfold resolve_fce.
  destruct (slot_ok_fc kind_of m (fce_id e) W K) as (k & f & ->). eexists. reflexivity.
Qed.

(* an accepted block whose IDs respect the kinds, on a network whose Foundation subsidy is computable, is applied: no error,
   no panic *)
Theorem accepted_block_applies H net vt pt se sd s b : validate_block H net vt pt se sd s b = Ok tt -> KindsB b ->
  (exists o, foundation_subsidy net s = Ok o) -> exists s' m, apply_block net s b = Ok (s', m).
Proof.
  intros V (K1 & K2 & Kp & Kf & Kx) (sub & Es). rewrite Forall_forall in K1, K2, Kp, Kx.
  destruct (accepted_transactions_apply H net vt pt se sd s b V) as (m1 & m2 & _ & A1 & _ & A2).
  destruct (validate_block_ok H net vt pt se sd s b V) as (_ & Vs & _). destruct (validate_supplement_ok net s b Vs) as (Sup & _).
  assert (W1 : WK m1).
  { refine (keeps_wk (fun m => apply_txns1 net s m (b_txns b) (b_supp b)) _ _ _ A1 (wk_new kind_of s)). apply apply_txns1_keeps.
    intros t u Hin. apply apply_txn1_wkj; auto. apply K1. exact (in_combine_l _ _ _ _ Hin). }
  assert (W2 : WK m2).
  { refine (keeps_wk (fold_r (apply_txn2 net s) (b_v2txns b)) _ _ _ A2 W1). apply keeps_fold. intros t Ht. apply apply_txn2_wkj; auto. }
  destruct (block_tail_succeeds net s WK b sub Es) with (m := m2) as (m5 & E5 & _); [| | |exact W2|].
  - intros p Hp. apply create_sce_succeeds, Kp, Hp.
  - intros o. apply create_sce_succeeds, Kf.
  - intros pe Hpe. destruct (Kx pe Hpe) as [Kc Ki]. split; [apply resolve_fce_succeeds, Kc|]. intros io Hio. apply create_sce_succeeds, (combine_kinds _ _ Ki io Hio).
  - eexists. exists m5. unfold apply_block, mid_apply_block. rewrite Sup, A1. cbn [bind]. rewrite A2. cbn [bind]. unfold block_tail in E5. rewrite E5. reflexivity.
Qed.
End Wk2.
