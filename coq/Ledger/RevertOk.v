(* C06: for an accepted block the hypothesis of the revert theorem holds -- every diff with an assigned leaf records exactly
   the element that leaf held -- so undoing the block restores the element store. This file: the siacoin, siafund and v2
   contract diffs, and blocks without v1 transactions; RevertOk1.v adds the v1 contract diffs. *)
From Coq Require Import ZArith List Bool Lia.
From Sia Require Import Prim.Result Prim.Tok Policy.Model Ledger.Types Ledger.Mid Ledger.Validate Ledger.Apply Ledger.Proofs Ledger.Spends Ledger.VApply Ledger.Revert.
Import ListNotations.
Open Scope Z_scope.

Lemma sfe_eqb_eq a b : sfe_eqb a b = true -> a = b.
Proof. exact (sfe_eqb_sound a b). Qed.
Lemma fce2_eqb_eq a b : fce2_eqb a b = true -> a = b.
Proof. exact (fce2_eqb_sound a b). Qed.

Section RevertOk.
Variable H : bytes -> bytes.
Variable net : lnetwork.
Variable vt : vtab.
Variable pt : ptab.
Variable se sd : bytes.
Variable s : lstate.

(* [holds j e] is [unspent_at s j e] of Proofs.v *)
Definition holds (j : Z) (e : elem) : Prop := nth_error (s_leaves s) (Z.to_nat j) = Some {| l_elem := e; l_spent := false |}.
Definition Qsc (d : sced) : Prop := d_sc_leaf d = UNASSIGNED \/ holds (d_sc_leaf d) (ESC (d_sce d)).
Definition Qsf (d : sfed) : Prop := d_sf_leaf d = UNASSIGNED \/ holds (d_sf_leaf d) (ESF (d_sfe d)).
Definition Qv2 (d : v2fced) : Prop := d_v2_leaf d = UNASSIGNED \/ (d_v2_created d = false /\ holds (d_v2_leaf d) (EV2 (d_v2 d))).

(* as in Persist.v, the v1 contract diffs are constrained by a parameter: here the constraint allows none, RevertOk1.Qfc is the one for all eras *)
Section Slices.
Variable Qfc : fced -> Prop.
Hypothesis Qfc_holds : forall d, Qfc d -> d_fc_leaf d = UNASSIGNED \/ holds (d_fc_leaf d) (EFC (d_fce d)).
Notation qinv := (entries Qsc Qsf Qfc Qv2).

Lemma create_sce_q i o mt : keeps qinv (fun m => create_sce m i o mt).
Proof. apply create_sce_entries. left. reflexivity. Qed.
Lemma spend_sce_q e lf tx : lf = UNASSIGNED \/ holds lf (ESC e) -> keeps qinv (fun m => spend_sce m e lf tx).
Proof. intros Hl. apply spend_sce_entries. intros cr. exact Hl. Qed.
Lemma create_sfe_q i v a : keeps qinv (fun m => create_sfe m i v a).
Proof. apply create_sfe_entries. left. reflexivity. Qed.
Lemma spend_sfe_q e lf tx : lf = UNASSIGNED \/ holds lf (ESF e) -> keeps qinv (fun m => spend_sfe m e lf tx).
Proof. intros Hl. apply spend_sfe_entries. intros cr. exact Hl. Qed.
Lemma create_v2_q i fc : keeps qinv (fun m => create_v2 m i fc).
Proof. apply create_v2_entries. left. reflexivity. Qed.
Lemma resolve_v2_q e lf kd tx : holds lf (EV2 e) -> keeps qinv (fun m => resolve_v2 m e lf kd tx).
Proof. intros Hl. apply resolve_v2_entries. intros rv. right. split; [reflexivity | exact Hl]. Qed.
(* a revision records the presented contract only in a diff that holds neither a creation nor an earlier revision *)
Lemma revise_v2_q e lf rev : holds lf (EV2 e) -> keeps qinv (fun m => revise_v2 m e lf rev).
Proof.
  intros Hl. apply revise_v2_entries. intros old [->|Po]; [right; split; [reflexivity | exact Hl]|].
  destruct (d_v2_created old) eqn:Cr; [left; destruct Po as [U|[C _]]; [exact U | congruence]|].
  destruct (d_v2_rev old); [|right; split; [reflexivity | exact Hl]]. destruct Po as [U|[_ Hh]]; [left; exact U | right; split; [reflexivity | exact Hh]].
Qed.

Lemma apply_txn2_q t : presented s t -> keeps qinv (fun m => apply_txn2 net s m t).
Proof.
  intros (P1 & P2 & P3 & P4). rewrite Forall_forall in P1, P2, P3, P4. apply apply_txn2_keeps.
  - intros i Hi. apply spend_sce_q, P1, Hi.
  - intros. apply create_sce_q.
  - intros i Hi. split; [apply spend_sfe_q, P2, Hi | intros o; apply create_sce_q].
  - intros. apply create_sfe_q.
  - intros. apply create_v2_q.
  - intros rv Hr. apply revise_v2_q, P3, Hr.
  - intros rs Hr. split; [intros kd; apply resolve_v2_q, P4, Hr|]. split; [intros rn _; apply create_v2_q|]. split; intros o; apply create_sce_q.
  - intros a m _ Q. exact Q.
  - intros m a b Q. exact Q.
Qed.

Lemma accepted_qinv b s' m : validate_block H net vt pt se sd s b = Ok tt -> apply_block net s b = Ok (s', m) ->
  keeps qinv (fun m => apply_txns1 net s m (b_txns b) (b_supp b)) ->
  (forall pe, In pe (b_expiring b) -> keeps qinv (fun m => resolve_fce m (p_val (fst pe)) (p_leaf (fst pe)) false (b_id b))) ->
  qinv m.
Proof.
  intros V A K1 Kx. apply (accepted_block_keeps H net vt pt se sd qinv s b s' m V A (entries_new _ _ _ _ s) K1).
  - intros t _. apply apply_txn2_q.
  - apply block_tail_keeps; [intros; apply create_sce_q | intros; apply create_sce_q|].
    intros pe Hpe. split; [exact (Kx pe Hpe) | intros; apply create_sce_q].
Qed.
Lemma revert_restores_slices b s' m : validate_block H net vt pt se sd s b = Ok tt -> apply_block net s b = Ok (s', m) ->
  keeps qinv (fun m => apply_txns1 net s m (b_txns b) (b_supp b)) ->
  (forall pe, In pe (b_expiring b) -> keeps qinv (fun m => resolve_fce m (p_val (fst pe)) (p_leaf (fst pe)) false (b_id b))) ->
  revert_leaves s s' m b = s_leaves s.
Proof.
  intros V A K1 Kx. apply (revert_restores net s b s' m A). destruct (accepted_qinv b s' m V A K1 Kx) as (J1 & J2 & J3 & J4).
  unfold old_updates. repeat (apply Forall_app; split); try apply Forall_map.
  - exact J1.
  - exact J2.
  - eapply Forall_impl; [|exact J3]. exact Qfc_holds.
  - eapply Forall_impl; [|exact J4]. cbv beta. intros d [U|[_ Hh]]; [left; exact U | right; exact Hh].
  - apply Forall_forall. intros i _. left. reflexivity.
  - constructor; [left; reflexivity | constructor].
Qed.
End Slices.

(* blocks without v1 transactions and expiring v1 contracts: no v1 contract diff is written *)
Lemma accepted_v2_qinv b s' m : validate_block H net vt pt se sd s b = Ok tt -> apply_block net s b = Ok (s', m) ->
  b_txns b = [] -> b_expiring b = [] -> entries Qsc Qsf (fun _ => False) Qv2 m.
Proof. intros V A T0 X0. apply (accepted_qinv (fun _ => False) b s' m V A); [rewrite T0; apply apply_txns1_nil_keeps | rewrite X0; intros ? []]. Qed.

Theorem revert_restores_accepted b s' m : validate_block H net vt pt se sd s b = Ok tt -> apply_block net s b = Ok (s', m) ->
  b_txns b = [] -> b_expiring b = [] -> revert_leaves s s' m b = s_leaves s.
Proof.
  intros V A T0 X0. apply (revert_restores_slices (fun _ => False) ltac:(intros ? []) b s' m V A); [rewrite T0; apply apply_txns1_nil_keeps | rewrite X0; intros ? []].
Qed.
End RevertOk.
