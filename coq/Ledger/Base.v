(* Facts about the MidState's building blocks that every ledger proof uses: ID comparison, positional writes, the
   slot a record goes to, and invariants carried through the model's folds and through whole transactions. *)
From Coq Require Import ZArith List Bool Lia.
From Sia Require Import Prim.Result Prim.Tok Policy.Model Ledger.Types Ledger.Mid Ledger.Validate Ledger.Apply.
Import ListNotations.
Open Scope Z_scope.

Lemma beq_eq a b : beq a b = true -> a = b.
Proof. unfold beq. destruct (list_eq_dec N.eq_dec a b); congruence. Qed.
Lemma beq_refl a : beq a a = true.
Proof. unfold beq. destruct (list_eq_dec N.eq_dec a a); congruence. Qed.
Lemma beq_false a b : a <> b -> beq a b = false.
Proof. intros Ne. destruct (beq a b) eqn:E; [apply beq_eq in E; contradiction | reflexivity]. Qed.

Lemma bind_err {E A B} (a : res E A) (f : A -> res E B) c : (do x <- a; f x) = Err c -> a = Err c \/ exists x, a = Ok x /\ f x = Err c.
Proof. destruct a as [x|e|p]; cbn; intros Er; [right; eauto | left; injection Er as ->; reflexivity | discriminate]. Qed.

(* peel the binds off a hypothesis [H : (do x <- r; k) = Ok _] *)
Ltac unbind H :=
  repeat match type of H with
  | bind ?r _ = Ok _ => let x := fresh "x" in let E := fresh "E" in destruct r as [x| |] eqn:E; cbn [bind] in H; [|discriminate H|discriminate H]
  end.

(* the same for a record*Element primitive unfolded in [H]: the slot is [(k, fr)], found by [Sl : slot _ _ _ = Ok (k, fr)] *)
Ltac unrecord H k fr Sl :=
  apply bind_ok in H; destruct H as ([k fr] & Sl & H); unbind H.

Lemma set_nth_same {A} (x : A) : forall k l, (k < length l)%nat -> nth_error (set_nth k x l) k = Some x.
Proof. induction k as [|k IH]; intros [|y r] L; cbn in *; try lia; [reflexivity | apply IH; lia]. Qed.
Lemma set_nth_other {A} (x : A) : forall k l j, j <> k -> nth_error (set_nth k x l) j = nth_error l j.
Proof.
  induction k as [|k IH]; intros [|y r] j Ne; cbn [set_nth]; try reflexivity.
  - destruct j; [contradiction | reflexivity].
  - destruct j; [reflexivity|]. cbn [nth_error]. apply IH. lia.
Qed.
Lemma set_nth_length {A} (x : A) : forall k l, length (set_nth k x l) = length l.
Proof. induction k as [|k IH]; intros [|y r]; cbn; auto. Qed.
Lemma set_nth_forall {A} (P : A -> Prop) (x : A) : forall k l, Forall P l -> P x -> Forall P (set_nth k x l).
Proof. induction k as [|k IH]; intros l F Px; destruct l as [|y r]; cbn [set_nth]; try constructor; inversion F; subst; auto. Qed.

Lemma slot_cases {A} m i (l : list A) k fresh : slot m i l = Ok (k, fresh) ->
  (fresh = true /\ elem_idx m i = None /\ k = length l) \/ (fresh = false /\ elem_idx m i = Some k /\ (k < length l)%nat).
Proof.
  unfold slot. destruct (elem_idx m i) as [k'|].
  - destruct (Nat.ltb_spec k' (length l)); [|discriminate]. intros E. inversion E; subst. right. auto.
  - intros E. inversion E; subst. left. auto.
Qed.
(* what [put] needs to know of a slot *)
Definition placed {A} (l : list A) (k : nat) (fresh : bool) : Prop :=
  (fresh = true /\ k = length l) \/ (fresh = false /\ (k < length l)%nat).
Lemma slot_placed {A} m i (l : list A) k fresh : slot m i l = Ok (k, fresh) -> placed l k fresh.
Proof. intros Sl. destruct (slot_cases _ _ _ _ _ Sl) as [(-> & _ & ->)|(-> & _ & L)]; [left | right]; auto. Qed.
Lemma put_same {A} k fresh (d : A) l : placed l k fresh -> nth_error (put k fresh d l) k = Some d.
Proof.
  intros [[-> ->]|[-> L]]; unfold put.
  - rewrite nth_error_app2 by lia. rewrite Nat.sub_diag. reflexivity.
  - apply set_nth_same. exact L.
Qed.
Lemma put_other {A} k fresh (d : A) l j : placed l k fresh -> j <> k -> nth_error (put k fresh d l) j = nth_error l j.
Proof.
  intros [[-> ->]|[-> L]] Ne; unfold put.
  - destruct (Nat.lt_ge_cases j (length l)) as [Lt|Ge]; [apply nth_error_app1; exact Lt|].
    transitivity (@None A); [|symmetry]; apply nth_error_None; [rewrite app_length; cbn [length]; lia | exact Ge].
  - apply set_nth_other. exact Ne.
Qed.
Lemma put_forall {A} (P : A -> Prop) k fresh (x : A) l : Forall P l -> P x -> Forall P (put k fresh x l).
Proof. intros F Px. unfold put. destruct fresh; [apply Forall_app; split; [exact F | constructor; [exact Px | constructor]] | apply set_nth_forall; assumption]. Qed.
Lemma slot_old {A} (P : A -> Prop) m i (l : list A) k fresh dflt : slot m i l = Ok (k, fresh) -> Forall P l ->
  (fresh = true /\ nth k l dflt = dflt) \/ (fresh = false /\ P (nth k l dflt)).
Proof.
  intros Sl F. destruct (slot_cases _ _ _ _ _ Sl) as [(-> & _ & ->)|(-> & _ & L)].
  - left. split; [reflexivity | apply nth_overflow; lia].
  - right. split; [reflexivity|]. rewrite Forall_forall in F. apply F, nth_In, L.
Qed.
Lemma elem_idx_els m i k fresh j : (fresh = true \/ elem_idx m i = Some k) ->
  assoc j (els m i k fresh) = if beq j i then Some k else elem_idx m j.
Proof.
  intros Hc. unfold els, elem_idx. destruct fresh; cbn [assoc]; [reflexivity|].
  destruct Hc as [|Hc]; [discriminate|]. destruct (beq j i) eqn:E; [apply beq_eq in E; subst; exact Hc | reflexivity].
Qed.

Definition keeps (I : mid -> Prop) (f : mid -> R mid) : Prop := forall m m', f m = Ok m' -> I m -> I m'.

Lemma keeps_bind (I : mid -> Prop) (f g : mid -> R mid) : keeps I f -> keeps I g -> keeps I (fun m => do m1 <- f m; g m1).
Proof. intros Kf Kg m m' E Im. apply bind_ok in E. destruct E as (m1 & E1 & E2). exact (Kg _ _ E2 (Kf _ _ E1 Im)). Qed.
Lemma keeps_fold (I : mid -> Prop) {A} (f : mid -> A -> R mid) l : (forall x, In x l -> keeps I (fun m => f m x)) -> keeps I (fold_r f l).
Proof.
  induction l as [|x r IH]; intros Hf m m' E Im; cbn [fold_r] in E; [inversion E; subst; exact Im|].
  apply bind_ok in E. destruct E as (m1 & E1 & E). refine (IH _ m1 m' E (Hf x (or_introl eq_refl) _ _ E1 Im)). intros y Hy. apply Hf. right. exact Hy.
Qed.
Lemma keeps_fold_left (I : mid -> Prop) {A} (g : mid -> A -> mid) l : (forall x m, In x l -> I m -> I (g m x)) -> forall m, I m -> I (fold_left g l m).
Proof. induction l as [|x r IH]; intros Hg m Im; cbn [fold_left]; [exact Im|]. apply IH; [intros y m0 Hy; apply Hg; right; exact Hy | apply Hg; [left; reflexivity | exact Im]]. Qed.

Definition succeeds (I : mid -> Prop) (f : mid -> R mid) : Prop := forall m, I m -> exists m', f m = Ok m' /\ I m'.
Lemma keeps_succeeds (I : mid -> Prop) f : keeps I f -> (forall m, I m -> exists m', f m = Ok m') -> succeeds I f.
Proof. intros K T m Im. destruct (T m Im) as (m' & E). exists m'. split; [exact E | exact (K m m' E Im)]. Qed.
Lemma succeeds_bind (I : mid -> Prop) (f g : mid -> R mid) : succeeds I f -> succeeds I g -> succeeds I (fun m => do m1 <- f m; g m1).
Proof. intros Sf Sg m Im. destruct (Sf m Im) as (m1 & E1 & I1). destruct (Sg m1 I1) as (m2 & E2 & I2). exists m2. rewrite E1. auto. Qed.
Lemma succeeds_fold (I : mid -> Prop) {A} (f : mid -> A -> R mid) l : (forall x, In x l -> succeeds I (fun m => f m x)) -> succeeds I (fold_r f l).
Proof.
  induction l as [|x r IH]; intros Hf m Im; cbn [fold_r]; [eauto|]. destruct (Hf x (or_introl eq_refl) m Im) as (m1 & E1 & I1). rewrite E1. cbn [bind].
  apply IH; [intros y Hy; apply Hf; right; exact Hy | exact I1].
Qed.

Section Transactions.
Variable net : lnetwork.
Variable s : lstate.
Variable I : mid -> Prop.
Notation mt := (maturity_height net s).

(* ApplyV2Transaction is a sequence of records; an invariant every one of them keeps is kept by the transaction *)
Lemma apply_txn2_keeps t :
  (forall i, In i (t2_sci t) -> keeps I (fun m => spend_sce m (p_val (i2_parent i)) (p_leaf (i2_parent i)) (t2_id t))) ->
  (forall x, In x (t2_sco t) -> keeps I (fun m => create_sce m (fst x) (snd x) 0)) ->
  (forall i, In i (t2_sfi t) -> keeps I (fun m => spend_sfe m (p_val (f2_parent i)) (p_leaf (f2_parent i)) (t2_id t)) /\
                                forall o, keeps I (fun m => create_sce m (f2_claim_id i) o mt)) ->
  (forall x, In x (t2_sfo t) -> keeps I (fun m => create_sfe m (fst x) (fst (snd x)) (snd (snd x)))) ->
  (forall x, In x (t2_fc t) -> keeps I (fun m => create_v2 m (fst x) (snd x))) ->
  (forall rv, In rv (t2_rev t) -> keeps I (fun m => revise_v2 m (p_val (r2_parent rv)) (p_leaf (r2_parent rv)) (r2_rev rv))) ->
  (forall rs, In rs (t2_res t) ->
     (forall kd, keeps I (fun m => resolve_v2 m (p_val (rs_parent rs)) (p_leaf (rs_parent rs)) kd (t2_id t))) /\
     (forall rn, rs_res rs = RRenewal rn -> keeps I (fun m => create_v2 m (rn_new_id rn) (rn_new rn))) /\
     (forall o, keeps I (fun m => create_sce m (rs_renter_id rs) o mt)) /\ (forall o, keeps I (fun m => create_sce m (rs_host_id rs) o mt))) ->
  (forall a m, In a (t2_att t) -> I m -> I (create_att m (at_id a))) ->
  (forall m a b, I m -> I (with_foundation m a b)) ->
  keeps I (fun m => apply_txn2 net s m t).
Proof.
  intros K1 K2 K3 K4 K5 K6 K7 K8 K9. unfold apply_txn2.
  repeat (apply keeps_bind; [apply keeps_fold; try assumption|]).
  - intros i Hi. destruct (K3 i Hi) as [Ka Kb]. apply keeps_bind; [exact Ka|]. intros m m' E. apply bind_ok in E. destruct E as (c & _ & E). exact (Kb _ m m' E).
  - intros rs Hr. destruct (K7 rs Hr) as (Ka & Kb & Kc & Kd). cbv zeta. apply keeps_bind; [apply Ka|]. apply keeps_bind.
    + destruct (rs_res rs) as [rn| |]; [apply (Kb rn eq_refl) | |]; intros m m' E Im; inversion E; subst; exact Im.
    + destruct (match rs_res rs with RRenewal rn => _ | RProof _ => _ | RExpiration => _ end) as [renter host]. apply keeps_bind; [apply Kc | apply Kd].
  - intros m m' E Im. assert (I8 : I (fold_left (fun m a => create_att m (at_id a)) (t2_att t) m)) by (apply keeps_fold_left; [intros a m0; apply K8 | exact Im]).
    destruct (t2_new_foundation t); inversion E; subst; [apply K9|]; exact I8.
Qed.

(* the same for ApplyTransaction, whose parents are looked up in the MidState and the supplement *)
Lemma apply_txn1_keeps t ts :
  (forall i m e lf, In i (t1_sci t) -> I m -> sc_element m ts (i1_parent i) = Some (e, lf) -> forall m', spend_sce m e lf (t1_id t) = Ok m' -> I m') ->
  (forall x, In x (t1_sco t) -> keeps I (fun m => create_sce m (fst x) (snd x) 0)) ->
  (forall i m e lf, In i (t1_sfi t) -> I m -> sf_element m ts (f1_parent i) = Some (e, lf) ->
     (forall m', spend_sfe m e lf (t1_id t) = Ok m' -> I m') /\ forall o, keeps I (fun m => create_sce m (f1_claim_id i) o mt)) ->
  (forall x, In x (t1_sfo t) -> keeps I (fun m => create_sfe m (fst x) (fst (snd x)) (snd (snd x)))) ->
  (forall x, In x (t1_fc t) -> forall tax, keeps I (fun m => create_fce m (fst (fst x)) (snd (fst x)) tax)) ->
  (forall rv m e lf, In rv (t1_rev t) -> I m -> fc_element m ts (r1_parent rv) = Some (e, lf) -> forall m', revise_fce m e lf (r1_fc rv) = Ok m' -> I m') ->
  (forall sp m e lf, In sp (t1_sp t) -> I m -> fc_element m ts (s1_parent sp) = Some (e, lf) ->
     (forall m', resolve_fce m e lf true (t1_id t) = Ok m' -> I m') /\
     forall io, In io (combine (s1_valid_ids sp) (fc_valid (fce_fc e))) -> keeps I (fun m => create_sce m (fst io) (snd io) mt)) ->
  (forall m a b, I m -> I (with_foundation m a b)) ->
  keeps I (fun m => apply_txn1 net s m t ts).
Proof.
  intros K1 K2 K3 K4 K5 K6 K7 K8. unfold apply_txn1.
  repeat (apply keeps_bind; [apply keeps_fold; try assumption|]).
  - intros i Hi m m' E Im. destruct (sc_element m ts (i1_parent i)) as [[e lf]|] eqn:Se; [|discriminate]. exact (K1 i m e lf Hi Im Se m' E).
  - intros i Hi m m' E Im. destruct (sf_element m ts (f1_parent i)) as [[e lf]|] eqn:Se; [|discriminate]. destruct (K3 i m e lf Hi Im Se) as [Ka Kb].
    apply bind_ok in E. destruct E as (c & _ & E). apply bind_ok in E. destruct E as (m1 & E1 & E). exact (Kb _ m1 m' E (Ka m1 E1)).
  - intros [[i fc] tax] Hx. exact (K5 _ Hx _).
  - intros rv Hr m m' E Im. destruct (fc_element m ts (r1_parent rv)) as [[e lf]|] eqn:Fe; [|discriminate]. exact (K6 rv m e lf Hr Im Fe m' E).
  - intros sp Hs m m' E Im. destruct (fc_element m ts (s1_parent sp)) as [[e lf]|] eqn:Fe; [|discriminate]. destruct (K7 sp m e lf Hs Im Fe) as [Ka Kb].
    apply bind_ok in E. destruct E as (m1 & E1 & E). exact (keeps_fold I _ _ Kb m1 m' E (Ka m1 E1)).
  - intros m m' E Im. destruct (ln_foundation_height net <=? s_height s); inversion E; subst; [|exact Im].
    apply keeps_fold_left; [|exact Im]. intros a m0 _ I0. destruct a; [exact I0 | exact I0 | apply K8; exact I0].
Qed.

Lemma apply_txns1_keeps : forall txs us, (forall t u, In (t, u) (combine txs us) -> keeps I (fun m => apply_txn1 net s m t u)) ->
  keeps I (fun m => apply_txns1 net s m txs us).
Proof.
  induction txs as [|t r IH]; intros us K m m' E Im; cbn [apply_txns1] in E; [inversion E; subst; exact Im|].
  destruct us as [|u ur]; [discriminate|]. apply bind_ok in E. destruct E as (m1 & E1 & E).
  refine (IH ur _ m1 m' E (K t u (or_introl eq_refl) m m1 E1 Im)). intros t' u' Hin. apply K. right. exact Hin.
Qed.

Lemma apply_txns1_nil_keeps us : keeps I (fun m => apply_txns1 net s m [] us).
Proof. apply apply_txns1_keeps. intros t u []. Qed.

(* MidState.ApplyBlock: the transactions, then what follows them -- miner payouts, Foundation subsidy, expiring v1 contracts *)
Definition block_tail (b : lblock) (m : mid) : R mid :=
  do m <- fold_r (fun m p => create_sce m (fst p) (snd p) mt) (b_payouts b) m;
  do sub <- foundation_subsidy net s;
  do m <- match sub with Some o => create_sce m (b_foundation_id b) o mt | None => Ok m end;
  fold_r (fun m (pe : pres fce1 * list id) =>
            let '(p, ids) := pe in
            if is_spent m (fce_id (p_val p)) then Ok m
            else do m1 <- resolve_fce m (p_val p) (p_leaf p) false (b_id b);
                 fold_r (fun m io => create_sce m (fst io) (snd io) mt) (combine ids (fc_missed (fce_fc (p_val p)))) m1)
         (b_expiring b) m.
Lemma mid_apply_block_ok b m0 m : mid_apply_block net s m0 b = Ok m ->
  exists m1 m2, apply_txns1 net s m0 (b_txns b) (b_supp b) = Ok m1 /\ fold_r (apply_txn2 net s) (b_v2txns b) m1 = Ok m2 /\ block_tail b m2 = Ok m.
Proof.
  unfold mid_apply_block. destruct (_ && _); [discriminate|]. intros E. apply bind_ok in E. destruct E as (m1 & E1 & E).
  apply bind_ok in E. destruct E as (m2 & E2 & E). exists m1, m2. auto.
Qed.
Lemma block_tail_keeps b :
  (forall p, In p (b_payouts b) -> keeps I (fun m => create_sce m (fst p) (snd p) mt)) ->
  (forall o, keeps I (fun m => create_sce m (b_foundation_id b) o mt)) ->
  (forall pe, In pe (b_expiring b) ->
     keeps I (fun m => resolve_fce m (p_val (fst pe)) (p_leaf (fst pe)) false (b_id b)) /\
     forall io, In io (combine (snd pe) (fc_missed (fce_fc (p_val (fst pe))))) -> keeps I (fun m => create_sce m (fst io) (snd io) mt)) ->
  keeps I (block_tail b).
Proof.
  intros K3 K4 K5. unfold block_tail. apply keeps_bind; [apply keeps_fold; exact K3|].
  intros m m' E Im. apply bind_ok in E. destruct E as (sub & _ & E). apply bind_ok in E. destruct E as (m1 & E1 & E).
  assert (I1 : I m1) by (destruct sub; [exact (K4 _ m m1 E1 Im) | inversion E1; subst; exact Im]).
  refine (keeps_fold I _ _ _ m1 m' E I1). intros [p ids] Hp m0 m0' E0 I0. destruct (K5 _ Hp) as [Ka Kb]. cbn [fst snd] in Ka, Kb.
  destruct (is_spent m0 (fce_id (p_val p))); [inversion E0; subst; exact I0|].
  apply bind_ok in E0. destruct E0 as (ma & Ea & E0). exact (keeps_fold I _ _ Kb ma m0' E0 (Ka _ _ Ea I0)).
Qed.
Lemma block_tail_succeeds b sub : foundation_subsidy net s = Ok sub ->
  (forall p, In p (b_payouts b) -> succeeds I (fun m => create_sce m (fst p) (snd p) mt)) ->
  (forall o, succeeds I (fun m => create_sce m (b_foundation_id b) o mt)) ->
  (forall pe, In pe (b_expiring b) ->
     succeeds I (fun m => resolve_fce m (p_val (fst pe)) (p_leaf (fst pe)) false (b_id b)) /\
     forall io, In io (combine (snd pe) (fc_missed (fce_fc (p_val (fst pe))))) -> succeeds I (fun m => create_sce m (fst io) (snd io) mt)) ->
  succeeds I (block_tail b).
Proof.
  intros Es S3 S4 S5. unfold block_tail. apply succeeds_bind; [apply succeeds_fold; exact S3|]. rewrite Es. cbn [bind]. apply succeeds_bind.
  - destruct sub; [apply S4 | intros m Im; eauto].
  - apply succeeds_fold. intros [p ids] Hp m Im. destruct (S5 _ Hp) as [Sa Sb]. cbn [fst snd] in Sa, Sb.
    destruct (is_spent m (fce_id (p_val p))); [eauto|]. exact (succeeds_bind I _ _ Sa (succeeds_fold I _ _ Sb) m Im).
Qed.
End Transactions.

(* invariants that speak of every diff of a slice on its own *)
Section Entries.
Variable Psc : sced -> Prop.
Variable Psf : sfed -> Prop.
Variable Pfc : fced -> Prop.
Variable Pv2 : v2fced -> Prop.
Definition entries (m : mid) : Prop :=
  Forall Psc (m_sces m) /\ Forall Psf (m_sfes m) /\ Forall Pfc (m_fces m) /\ Forall Pv2 (m_v2fces m).

Lemma entries_new s : entries (new_mid s).
Proof. repeat split; constructor. Qed.

Lemma put_sc m k fresh d el sp : entries m -> Psc d -> entries (with_sces m (put k fresh d (m_sces m)) el sp).
Proof. intros (I1 & I2 & I3 & I4) Pd. repeat split; try assumption. apply put_forall; assumption. Qed.
Lemma put_sf m k fresh d el sp : entries m -> Psf d -> entries (with_sfes m (put k fresh d (m_sfes m)) el sp).
Proof. intros (I1 & I2 & I3 & I4) Pd. repeat split; try assumption. apply put_forall; assumption. Qed.
Lemma put_fc m k fresh d el sp pool : entries m -> Pfc d -> entries (with_fces m (put k fresh d (m_fces m)) el sp pool).
Proof. intros (I1 & I2 & I3 & I4) Pd. repeat split; try assumption. apply put_forall; assumption. Qed.
Lemma put_v2 m k fresh d el sp pool : entries m -> Pv2 d -> entries (with_v2fces m (put k fresh d (m_v2fces m)) el sp pool).
Proof. intros (I1 & I2 & I3 & I4) Pd. repeat split; try assumption. apply put_forall; assumption. Qed.

(* a record keeps them when the diff it writes is good, whatever the slot; the fields a record copies from the diff it
   replaces are universally quantified where they do not matter *)
Lemma create_sce_entries i o mt :
  (forall sp, Psc {| d_sce := {| sce_id := i; sce_out := o; sce_maturity := mt |}; d_sc_leaf := UNASSIGNED; d_sc_created := true; d_sc_spent := sp |}) ->
  keeps entries (fun m => create_sce m i o mt).
Proof. intros Pd m m' E Im. unfold create_sce in E. unrecord E k fr Sl. inversion E; subst. apply put_sc; [exact Im | apply Pd]. Qed.
Lemma spend_sce_entries e lf tx :
  (forall cr, Psc {| d_sce := e; d_sc_leaf := lf; d_sc_created := cr; d_sc_spent := true |}) -> keeps entries (fun m => spend_sce m e lf tx).
Proof. intros Pd m m' E Im. unfold spend_sce in E. unrecord E k fr Sl. inversion E; subst. apply put_sc; [exact Im | apply Pd]. Qed.
Lemma create_sfe_entries i v a :
  (forall cl sp, Psf {| d_sfe := {| sfe_id := i; sfe_value := v; sfe_addr := a; sfe_claim := cl |}; d_sf_leaf := UNASSIGNED; d_sf_created := true; d_sf_spent := sp |}) ->
  keeps entries (fun m => create_sfe m i v a).
Proof. intros Pd m m' E Im. unfold create_sfe in E. unrecord E k fr Sl. inversion E; subst. apply put_sf; [exact Im | apply Pd]. Qed.
Lemma spend_sfe_entries e lf tx :
  (forall cr, Psf {| d_sfe := e; d_sf_leaf := lf; d_sf_created := cr; d_sf_spent := true |}) -> keeps entries (fun m => spend_sfe m e lf tx).
Proof. intros Pd m m' E Im. unfold spend_sfe in E. unrecord E k fr Sl. inversion E; subst. apply put_sf; [exact Im | apply Pd]. Qed.
Lemma create_fce_entries i fc tax :
  (forall rv rs vl, Pfc {| d_fce := {| fce_id := i; fce_fc := fc |}; d_fc_leaf := UNASSIGNED; d_fc_created := true; d_fc_rev := rv; d_fc_resolved := rs; d_fc_valid := vl |}) ->
  keeps entries (fun m => create_fce m i fc tax).
Proof. intros Pd m m' E Im. unfold create_fce in E. unrecord E k fr Sl. inversion E; subst. apply put_fc; [exact Im | apply Pd]. Qed.
Lemma create_v2_entries i fc :
  (forall rv rs, Pv2 {| d_v2 := {| v2_id := i; v2_fc := fc |}; d_v2_leaf := UNASSIGNED; d_v2_created := true; d_v2_rev := rv; d_v2_res := rs |}) ->
  keeps entries (fun m => create_v2 m i fc).
Proof. intros Pd m m' E Im. unfold create_v2 in E. unrecord E k fr Sl. inversion E; subst. apply put_v2; [exact Im | apply Pd]. Qed.
Lemma resolve_v2_entries e lf kd tx :
  (forall rv, Pv2 {| d_v2 := e; d_v2_leaf := lf; d_v2_created := false; d_v2_rev := rv; d_v2_res := Some kd |}) -> keeps entries (fun m => resolve_v2 m e lf kd tx).
Proof.
  intros Pd m m' E Im. unfold resolve_v2 in E. unrecord E k fr Sl. destruct (d_v2_created _); [discriminate|]. inversion E; subst. apply put_v2; [exact Im | apply Pd].
Qed.
(* a revision or a v1 resolution builds its diff from the one it replaces: the default diff in a fresh slot, a good one otherwise *)
Lemma revise_v2_entries e lf rev :
  (forall old, old = dummy_v2fced \/ Pv2 old ->
     Pv2 (if d_v2_created old then {| d_v2 := {| v2_id := v2_id (d_v2 old); v2_fc := rev |}; d_v2_leaf := d_v2_leaf old; d_v2_created := true; d_v2_rev := d_v2_rev old; d_v2_res := d_v2_res old |}
          else match d_v2_rev old with
               | Some _ => {| d_v2 := d_v2 old; d_v2_leaf := d_v2_leaf old; d_v2_created := false; d_v2_rev := Some rev; d_v2_res := d_v2_res old |}
               | None => {| d_v2 := e; d_v2_leaf := lf; d_v2_created := false; d_v2_rev := Some rev; d_v2_res := d_v2_res old |}
               end)) ->
  keeps entries (fun m => revise_v2 m e lf rev).
Proof.
  intros Pd m m' E Im. unfold revise_v2 in E. unrecord E k fr Sl. inversion E; subst. apply put_v2; [exact Im|]. apply Pd.
  destruct (slot_old Pv2 _ _ _ _ _ dummy_v2fced Sl (proj2 (proj2 (proj2 Im)))) as [[_ ->]|[_ Po]]; [left; reflexivity | right; exact Po].
Qed.
Lemma revise_fce_entries m e lf rev m' :
  (forall k fresh, slot m (fce_id e) (m_fces m) = Ok (k, fresh) -> let old := nth k (m_fces m) dummy_fced in (fresh = true /\ old = dummy_fced) \/ (fresh = false /\ Pfc old) ->
     let rev := with_payout rev (fc_payout (fce_fc e)) in
     Pfc (if d_fc_created old then {| d_fce := {| fce_id := fce_id (d_fce old); fce_fc := rev |}; d_fc_leaf := d_fc_leaf old; d_fc_created := true;
                                      d_fc_rev := d_fc_rev old; d_fc_resolved := d_fc_resolved old; d_fc_valid := d_fc_valid old |}
          else match d_fc_rev old with
               | Some _ => {| d_fce := d_fce old; d_fc_leaf := d_fc_leaf old; d_fc_created := false; d_fc_rev := Some rev;
                              d_fc_resolved := d_fc_resolved old; d_fc_valid := d_fc_valid old |}
               | None => {| d_fce := e; d_fc_leaf := lf; d_fc_created := false; d_fc_rev := Some rev;
                            d_fc_resolved := d_fc_resolved old; d_fc_valid := d_fc_valid old |}
               end)) ->
  revise_fce m e lf rev = Ok m' -> entries m -> entries m'.
Proof.
  intros Pd E Im. unfold revise_fce in E. cbv zeta in E. unrecord E k fr Sl. inversion E; subst. apply put_fc; [exact Im|]. apply (Pd k fr Sl).
  exact (slot_old Pfc _ _ _ _ _ dummy_fced Sl (proj1 (proj2 (proj2 Im)))).
Qed.
Lemma resolve_fce_entries m e lf valid tx m' :
  (forall k fresh, slot m (fce_id e) (m_fces m) = Ok (k, fresh) -> let old := nth k (m_fces m) dummy_fced in (fresh = true /\ old = dummy_fced) \/ (fresh = false /\ Pfc old) ->
     let keep := d_fc_created old || match d_fc_rev old with Some _ => true | None => false end in
     Pfc {| d_fce := if keep then d_fce old else e; d_fc_leaf := if keep then d_fc_leaf old else lf;
            d_fc_created := d_fc_created old; d_fc_rev := d_fc_rev old; d_fc_resolved := true; d_fc_valid := valid |}) ->
  resolve_fce m e lf valid tx = Ok m' -> entries m -> entries m'.
Proof.
  intros Pd E Im. unfold resolve_fce in E. unrecord E k fr Sl. inversion E; subst. apply put_fc; [exact Im|]. apply (Pd k fr Sl).
  exact (slot_old Pfc _ _ _ _ _ dummy_fced Sl (proj1 (proj2 (proj2 Im)))).
Qed.
End Entries.
