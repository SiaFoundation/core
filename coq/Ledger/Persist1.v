(* C02 over histories, all eras: a leaf that is marked spent stays marked spent through every accepted block -- with v1
   transactions, v1 contracts and expiring contracts as well. *)
From Coq Require Import ZArith List Bool Lia.
From Sia Require Import Prim.Result Prim.Tok Policy.Model Ledger.Types Ledger.Mid Ledger.Validate Ledger.Apply Ledger.Proofs Ledger.Spends Ledger.VApply Ledger.Persist.
Import ListNotations.
Open Scope Z_scope.

Section Persist1.
Variable H : bytes -> bytes.
Variable net : lnetwork.
Variable vt : vtab.
Variable pt : ptab.
Variable se sd : bytes.
Variable s : lstate.

(* [live_fc j] is [exists e, unspent_at s j (EFC e)] *)
Definition live_fc (j : Z) : Prop := exists e, nth_error (s_leaves s) (Z.to_nat j) = Some {| l_elem := EFC e; l_spent := false |}.
(* a v1 contract diff is a creation, a revision or a resolution; with an assigned leaf it is resolved or points at a live
   v1 contract leaf *)
Definition Pfc (d : fced) : Prop :=
  (d_fc_created d = true \/ d_fc_rev d <> None \/ d_fc_resolved d = true) /\
  (d_fc_leaf d = UNASSIGNED \/ d_fc_resolved d = true \/ live_fc (d_fc_leaf d)).
Definition Inv1 (m : mid) : Prop :=
  Forall (Psc) (m_sces m) /\ Forall (Psf) (m_sfes m) /\ Forall Pfc (m_fces m) /\ Forall (Pv2 s) (m_v2fces m).

Lemma create_fce_i i fc tax : keeps Inv1 (fun m => create_fce m i fc tax).
Proof. apply create_fce_entries. intros. split; left; reflexivity. Qed.
Lemma resolve_fce_i m e lf valid tx m' : resolve_fce m e lf valid tx = Ok m' -> Inv1 m -> Inv1 m'.
Proof. apply resolve_fce_entries. intros. split; right; [right | left]; reflexivity. Qed.
(* a revision records the presented leaf only when the MidState has no diff for the contract yet *)
Lemma revise_fce_i m e lf rev m' : (elem_idx m (fce_id e) = None -> live_fc lf) -> revise_fce m e lf rev = Ok m' -> Inv1 m -> Inv1 m'.
Proof.
  intros Lv. apply revise_fce_entries. intros k fresh Sl old [[-> ->]|[_ [Pa Pb]]] rev'.
  - split; [right; left; discriminate | right; right; apply Lv]. destruct (slot_cases _ _ _ _ _ Sl) as [(_ & En & _)|(F & _)]; [exact En | discriminate].
  - destruct (d_fc_created old) eqn:Cr; [split; [left; reflexivity | exact Pb]|]. destruct (d_fc_rev old) eqn:Rv; [split; [right; left; discriminate | exact Pb]|].
    destruct Pa as [C|[R|Rs]]; [congruence | congruence|]. split; [right; left; discriminate | right; left; exact Rs].
Qed.

(* the v1 contracts a transaction's supplement presents, for its revisions and its storage proofs, have been checked
   against the store *)
Definition SuppOK (u : supp1) : Prop :=
  Forall (fun p => fst (mem_fc s p) = true) (u_rev u) /\ Forall (fun x => fst (mem_fc s (ss_fc x)) = true) (u_sp u).
Lemma mem_fc_live p : fst (mem_fc s p) = true -> live_fc (p_leaf p).
Proof. intros M. eexists. exact (mem_fc_unspent s p M). Qed.
(* an element looked up for an ID the MidState does not know comes from the supplement *)
Lemma fc_element_spec m ts i e lf : SuppOK ts -> fc_element m ts i = Some (e, lf) -> fce_id e = i /\ (elem_idx m i = None -> live_fc lf).
Proof.
  intros [Sr Ss] E. split; [exact (fc_element_id _ _ _ _ _ E)|]. rewrite Forall_forall in Sr, Ss.
  destruct (fc_element_cases _ _ _ _ _ E) as [(k & d & Ei & _)|(p & Hin & _ & _ & ->)]; [congruence|]. intros _. apply mem_fc_live.
  destruct Hin as [Hin|(x & Hin & ->)]; [exact (Sr p Hin) | exact (Ss x Hin)].
Qed.

Lemma apply_txn1_i m t ts m' : SuppOK ts -> apply_txn1 net s m t ts = Ok m' -> Inv1 m -> Inv1 m'.
Proof.
  intros So. revert m m'. apply apply_txn1_keeps.
  - intros i m e lf _ Im _ m' E. exact (spend_sce_keeps s Pfc _ _ _ _ _ E Im).
  - intros. apply (create_sce_keeps s Pfc).
  - intros i m e lf _ Im _. split; [intros m' E; exact (spend_sfe_keeps s Pfc _ _ _ _ _ E Im) | intros o; apply (create_sce_keeps s Pfc)].
  - intros. apply (create_sfe_keeps s Pfc).
  - intros. apply create_fce_i.
  - intros rv m e lf _ Im Fe m' E. destruct (fc_element_spec m ts _ e lf So Fe) as [Ei Lv]. refine (revise_fce_i _ _ _ _ _ _ E Im). rewrite Ei. exact Lv.
  - intros sp m e lf _ Im _. split; [intros m' E; exact (resolve_fce_i _ _ _ _ _ _ E Im) | intros; apply (create_sce_keeps s Pfc)].
  - intros m0 a b Im. exact Im.
Qed.

Lemma supplement_ok b : validate_supplement net s b = Ok tt ->
  Forall SuppOK (b_supp b) /\ Forall (fun p : pres fce1 * list id => live_fc (p_leaf (fst p))) (b_expiring b).
Proof.
  intros Vs. destruct (validate_supplement_ok net s b Vs) as (_ & _ & Fs & Fe). split; (eapply Forall_impl; [|eassumption]); cbv beta.
  - intros u (_ & _ & A & B). split; assumption.
  - intros p Hp. exact (mem_fc_live _ Hp).
Qed.

Theorem spent_persist_all b s' m : validate_block H net vt pt se sd s b = Ok tt -> apply_block net s b = Ok (s', m) ->
  forall k, SpentAt (s_leaves s) k -> SpentAt (s_leaves s') k.
Proof.
  intros V A. destruct (validate_block_ok H net vt pt se sd s b V) as (_ & Vs & _). destruct (supplement_ok b Vs) as [So _].
  apply (spent_persist_slices H net vt pt se sd s Pfc (fun d P => proj2 P) b s' m V A).
  - apply apply_txns1_keeps. intros t u Hin. intros m0 m0'. apply apply_txn1_i. rewrite Forall_forall in So. apply So. exact (in_combine_r _ _ _ _ Hin).
  - intros pe _ m0 m0'. apply resolve_fce_i.
Qed.
End Persist1.

Section ChainAll.
Variable H : bytes -> bytes.
Variable net : lnetwork.
Variable vt : vtab.
Variable pt : ptab.
Variable se sd : bytes.

Inductive chain_all : lstate -> list lblock -> lstate -> Prop :=
| chain_all_nil s : chain_all s [] s
| chain_all_cons s b s1 m bs s' : validate_block H net vt pt se sd s b = Ok tt -> apply_block net s b = Ok (s1, m) ->
    chain_all s1 bs s' -> chain_all s (b :: bs) s'.

Theorem chain_all_spent_persist s bs s' : chain_all s bs s' -> forall k, SpentAt (s_leaves s) k -> SpentAt (s_leaves s') k.
Proof. induction 1 as [|s b s1 m bs s' V A C IH]; intros k Sk; [exact Sk|]. apply IH. eapply spent_persist_all; eassumption. Qed.

(* over any accepted history, of any mix of eras: a leaf once marked spent is never again accepted as the parent of a v2
   siacoin input, siafund input, revision or resolution *)
Theorem chain_all_no_reuse s bs s' k : chain_all s bs s' -> SpentAt (s_leaves s) k ->
  forall m t, validate_txn2 H net vt pt se sd s' m t = Ok tt ->
  (forall i, In i (t2_sci t) -> p_leaf (i2_parent i) <> UNASSIGNED -> Z.to_nat (p_leaf (i2_parent i)) <> k) /\
  (forall i, In i (t2_sfi t) -> p_leaf (f2_parent i) <> UNASSIGNED -> Z.to_nat (p_leaf (f2_parent i)) <> k) /\
  (forall rv, In rv (t2_rev t) -> Z.to_nat (p_leaf (r2_parent rv)) <> k) /\
  (forall rs, In rs (t2_res t) -> Z.to_nat (p_leaf (rs_parent rs)) <> k).
Proof. intros C Sk m t V. exact (spent_not_presented s' k t (chain_all_spent_persist _ _ _ C k Sk) (validate_presented H net vt pt se sd s' m t V)). Qed.

(* ... nor, in a block with v1 transactions, as a supplement element: siacoin or siafund parent, revised, proven or expiring
   v1 contract *)
Theorem chain_all_no_reuse_v1 s bs s' k : chain_all s bs s' -> SpentAt (s_leaves s) k ->
  forall b, validate_block H net vt pt se sd s' b = Ok tt ->
  (forall u p, In u (b_supp b) -> In p (u_sci u) -> Z.to_nat (p_leaf p) <> k) /\
  (forall u p, In u (b_supp b) -> In p (u_sfi u) -> Z.to_nat (p_leaf p) <> k) /\
  (forall u p, In u (b_supp b) -> In p (u_rev u) -> Z.to_nat (p_leaf p) <> k) /\
  (forall u x, In u (b_supp b) -> In x (u_sp u) -> Z.to_nat (p_leaf (ss_fc x)) <> k) /\
  (forall p, In p (b_expiring b) -> Z.to_nat (p_leaf (fst p)) <> k).
Proof.
  intros C Sk b V. pose proof (unspent_not_spent s' k) as Live. specialize (fun j e => Live j e (chain_all_spent_persist _ _ _ C k Sk)).
  destruct (validate_block_ok H net vt pt se sd s' b V) as (_ & Vs & _).
  destruct (validate_supplement_ok net s' b Vs) as (_ & _ & Fs & Fe). rewrite Forall_forall in Fs, Fe.
  split; [|split; [|split; [|split]]].
  - intros u p Hu Hp. destruct (Fs u Hu) as (A & _). rewrite Forall_forall in A. exact (Live _ _ (mem_sc_unspent s' p (A p Hp))).
  - intros u p Hu Hp. destruct (Fs u Hu) as (_ & A & _). rewrite Forall_forall in A. exact (Live _ _ (mem_sf_unspent s' p (A p Hp))).
  - intros u p Hu Hp. destruct (Fs u Hu) as (_ & _ & A & _). rewrite Forall_forall in A. exact (Live _ _ (mem_fc_unspent s' p (A p Hp))).
  - intros u y Hu Hy. destruct (Fs u Hu) as (_ & _ & _ & A). rewrite Forall_forall in A. exact (Live _ _ (mem_fc_unspent s' _ (A y Hy))).
  - intros p Hp. exact (Live _ _ (mem_fc_unspent s' _ (Fe p Hp))).
Qed.
End ChainAll.
