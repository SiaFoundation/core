(* No element is consumed twice inside a block: the shared spends map of the MidState only grows, every consumed
   element is entered, and validation refuses an element that is already there. *)
From Coq Require Import ZArith List Bool Lia.
From Sia Require Import Prim.Result Prim.Tok Policy.Model Ledger.Types Ledger.Mid Ledger.Validate Ledger.Apply Ledger.Proofs.
Import ListNotations.
Open Scope Z_scope.

Lemma NoDup_app_disjoint {A} (l1 l2 : list A) : NoDup l1 -> NoDup l2 -> (forall x, In x l1 -> In x l2 -> False) -> NoDup (l1 ++ l2).
Proof.
  induction l1 as [|a l1 IH]; intros N1 N2 D; [exact N2|]. inversion N1; subst. cbn [app]. constructor.
  - intros Hin. apply in_app_or in Hin. destruct Hin as [Hin|Hin]; [contradiction | apply (D a); [left; reflexivity | exact Hin]].
  - apply IH; auto. intros x Hx1 Hx2. apply (D x); [right; exact Hx1 | exact Hx2].
Qed.

Definition ext (m m' : mid) : Prop := exists L, m_spends m' = L ++ m_spends m.
Lemma ext_refl m : ext m m. Proof. exists []. reflexivity. Qed.
Lemma ext_trans a b c : ext a b -> ext b c -> ext a c.
Proof. intros [L1 E1] [L2 E2]. exists (L2 ++ L1). rewrite E2, E1, app_assoc. reflexivity. Qed.
Lemma ext_eq m m' : m_spends m' = m_spends m -> ext m m'. Proof. intros E. exists []. exact E. Qed.
Lemma ext_cons m m' k v : m_spends m' = (k, v) :: m_spends m -> ext m m'. Proof. intros E. exists [(k, v)]. exact E. Qed.

Lemma assoc_app {A} k (L1 L2 : list (id * A)) : assoc k L2 <> None -> assoc k (L1 ++ L2) <> None.
Proof. induction L1 as [|[k' v] L1 IH]; intros Hn; cbn [app assoc]; [exact Hn|]. destruct (beq k k'); [discriminate | apply IH; exact Hn]. Qed.
Lemma spent_mono m m' i : ext m m' -> is_spent m i = true -> is_spent m' i = true.
Proof.
  intros [L E]. unfold is_spent, spent_in. rewrite E. intros Hs.
  destruct (assoc i (L ++ m_spends m)) eqn:A; [reflexivity|]. exfalso.
  apply (assoc_app i L (m_spends m)); [|exact A]. destruct (assoc i (m_spends m)); [discriminate | discriminate].
Qed.
Lemma fresh_mono m m' i : ext m m' -> is_spent m' i = false -> is_spent m i = false.
Proof. intros X F. destruct (is_spent m i) eqn:S; [|reflexivity]. rewrite (spent_mono m m' i X S) in F. discriminate. Qed.
Lemma entered_spent m m' tx L : m_spends m' = map (fun i => (i, tx)) (rev L) ++ m_spends m -> ext m m' /\ Forall (fun i => is_spent m' i = true) L.
Proof.
  intros E. split; [eexists; exact E|]. apply Forall_forall. intros i Hin. apply in_rev in Hin. unfold is_spent, spent_in. rewrite E. clear E.
  induction (rev L) as [|j L' IH]; [destruct Hin|]. cbn [map app assoc]. destruct (beq i j) eqn:B; [reflexivity|].
  apply IH. destruct Hin as [->|Hin]; [rewrite beq_refl in B; discriminate | exact Hin].
Qed.

Lemma create_sce_sp m i o mt m' : create_sce m i o mt = Ok m' -> m_spends m' = m_spends m.
Proof. intros E. unfold create_sce in E. unrecord E k fr Sl. inversion E. reflexivity. Qed.
Lemma create_sfe_sp m i v a m' : create_sfe m i v a = Ok m' -> m_spends m' = m_spends m.
Proof. intros E. unfold create_sfe in E. unrecord E k fr Sl. inversion E. reflexivity. Qed.
Lemma create_fce_sp m i fc tax m' : create_fce m i fc tax = Ok m' -> m_spends m' = m_spends m.
Proof. intros E. unfold create_fce in E. unrecord E k fr Sl. inversion E. reflexivity. Qed.
Lemma create_v2_sp m i fc m' : create_v2 m i fc = Ok m' -> m_spends m' = m_spends m.
Proof. intros E. unfold create_v2 in E. unrecord E k fr Sl. inversion E. reflexivity. Qed.
Lemma revise_fce_sp m e lf rev m' : revise_fce m e lf rev = Ok m' -> m_spends m' = m_spends m.
Proof. intros E. unfold revise_fce in E. cbv zeta in E. unrecord E k fr Sl. inversion E. reflexivity. Qed.
Lemma revise_v2_sp m e lf rev m' : revise_v2 m e lf rev = Ok m' -> m_spends m' = m_spends m.
Proof. intros E. unfold revise_v2 in E. unrecord E k fr Sl. inversion E. reflexivity. Qed.
Lemma spend_sce_sp m e lf tx m' : spend_sce m e lf tx = Ok m' -> m_spends m' = (sce_id e, tx) :: m_spends m.
Proof. intros E. unfold spend_sce in E. unrecord E k fr Sl. inversion E. reflexivity. Qed.
Lemma spend_sfe_sp m e lf tx m' : spend_sfe m e lf tx = Ok m' -> m_spends m' = (sfe_id e, tx) :: m_spends m.
Proof. intros E. unfold spend_sfe in E. unrecord E k fr Sl. inversion E. reflexivity. Qed.
Lemma resolve_fce_sp m e lf v tx m' : resolve_fce m e lf v tx = Ok m' -> m_spends m' = (fce_id e, tx) :: m_spends m.
Proof. intros E. unfold resolve_fce in E. unrecord E k fr Sl. inversion E. reflexivity. Qed.
Lemma resolve_v2_sp m e lf k tx m' : resolve_v2 m e lf k tx = Ok m' -> m_spends m' = (v2_id e, tx) :: m_spends m.
Proof. intros E. unfold resolve_v2 in E. unrecord E j fr Sl. destruct (d_v2_created _); [discriminate|]. inversion E. reflexivity. Qed.
Lemma create_att_sp m i : m_spends (create_att m i) = m_spends m. Proof. reflexivity. Qed.

Lemma keeps_ext m0 (f : mid -> R mid) : (forall m m', f m = Ok m' -> ext m m') -> keeps (ext m0) f.
Proof. intros Hf m m' E X. exact (ext_trans _ _ _ X (Hf m m' E)). Qed.
Lemma block_tail_ext net s b m m' : block_tail net s b m = Ok m' -> ext m m'.
Proof.
  intros E. refine (block_tail_keeps net s (ext m) b _ _ _ m m' E (ext_refl m)).
  - intros p _. apply keeps_ext. intros m0 m0' E0. exact (ext_eq _ _ (create_sce_sp _ _ _ _ _ E0)).
  - intros o. apply keeps_ext. intros m0 m0' E0. exact (ext_eq _ _ (create_sce_sp _ _ _ _ _ E0)).
  - intros pe _. split; [|intros io _]; apply keeps_ext; intros m0 m0' E0; [exact (ext_cons _ _ _ _ (resolve_fce_sp _ _ _ _ _ _ E0)) | exact (ext_eq _ _ (create_sce_sp _ _ _ _ _ E0))].
Qed.
Lemma fold_r_ext {A} (f : mid -> A -> R mid) l : (forall m x m', f m x = Ok m' -> ext m m') -> forall m m', fold_r f l m = Ok m' -> ext m m'.
Proof. intros Hf m m' E. refine (keeps_fold (ext m) f l _ m m' E (ext_refl m)). intros x _. apply keeps_ext. intros m0 m0'. apply Hf. Qed.

(* [enters tx L f]: when [f] succeeds it has put the IDs of [L], in this order, on the spends map, under [tx].
   The [*_sp] lemmas say [enters tx []] of the records that create or revise and [enters tx [i]] of those that spend [i]. *)
Definition enters (tx : id) (L : list id) (f : mid -> R mid) : Prop :=
  forall m m', f m = Ok m' -> m_spends m' = map (fun i => (i, tx)) (rev L) ++ m_spends m.
Lemma enters_bind tx L1 L2 (f g : mid -> R mid) : enters tx L1 f -> enters tx L2 g -> enters tx (L1 ++ L2) (fun m => do m1 <- f m; g m1).
Proof.
  intros Ff Fg m m' E. apply bind_ok in E. destruct E as (m1 & E1 & E2).
  rewrite (Fg _ _ E2), (Ff _ _ E1), rev_app_distr, map_app, app_assoc. reflexivity.
Qed.
Lemma enters_first tx L (f g : mid -> R mid) : enters tx L f -> enters tx [] g -> enters tx L (fun m => do m1 <- f m; g m1).
Proof. intros Ff Fg. rewrite <- (app_nil_r L). exact (enters_bind tx L [] f g Ff Fg). Qed.
Lemma enters_later tx L (f g : mid -> R mid) : enters tx [] f -> enters tx L g -> enters tx L (fun m => do m1 <- f m; g m1).
Proof. exact (enters_bind tx [] L f g). Qed.
Lemma enters_fold tx {A} (key : A -> id) (f : mid -> A -> R mid) l : (forall x, enters tx [key x] (fun m => f m x)) -> enters tx (map key l) (fold_r f l).
Proof.
  intros Hf. induction l as [|x l IH]; [intros m m' E; inversion E; reflexivity|].
  exact (enters_bind tx [key x] (map key l) (fun m => f m x) (fold_r f l) (Hf x) IH).
Qed.
Lemma enters_fold_none tx {A} (f : mid -> A -> R mid) l : (forall x, enters tx [] (fun m => f m x)) -> enters tx [] (fold_r f l).
Proof.
  intros Hf. induction l as [|x l IH]; [intros m m' E; inversion E; reflexivity|].
  exact (enters_later tx [] (fun m => f m x) (fold_r f l) (Hf x) IH).
Qed.

Definition consumes (m m' : mid) (l : list id) : Prop :=
  ext m m' /\ NoDup l /\ Forall (fun i => is_spent m i = false) l /\ Forall (fun i => is_spent m' i = true) l.
Lemma consumes_nil m : consumes m m [].
Proof. split; [apply ext_refl|]. repeat split; constructor. Qed.
Lemma consumes_app m m1 m' l r : consumes m m1 l -> consumes m1 m' r -> consumes m m' (l ++ r).
Proof.
  intros (X1 & N1 & F1 & S1) (X2 & N2 & F2 & S2). split; [exact (ext_trans _ _ _ X1 X2)|]. split; [|split].
  - (* what [l] names is entered in [m1], what [r] names is not *)
    apply NoDup_app_disjoint; [exact N1 | exact N2|]. rewrite Forall_forall in S1, F2. intros i H1 H2. pose proof (S1 i H1). pose proof (F2 i H2). congruence.
  - apply Forall_app. split; [exact F1 | exact (Forall_impl _ (fun i => fresh_mono m m1 i X1) F2)].
  - apply Forall_app. split; [exact (Forall_impl _ (fun i => spent_mono m1 m' i X2) S1) | exact S2].
Qed.
Lemma consumes_fold {A} (f : mid -> A -> R mid) (sel : A -> list id) l : (forall m x m', f m x = Ok m' -> consumes m m' (sel x)) ->
  forall m m', fold_r f l m = Ok m' -> consumes m m' (flat_map sel l).
Proof.
  intros Hf. induction l as [|x l IH]; intros m m' E; cbn [fold_r flat_map] in *.
  - inversion E; subst. apply consumes_nil.
  - apply bind_ok in E. destruct E as (m1 & E1 & E). exact (consumes_app _ _ _ _ _ (Hf _ _ _ E1) (IH _ _ E)).
Qed.

Section Block.
Variable H : bytes -> bytes.
Variable net : lnetwork.
Variable vt : vtab.
Variable pt : ptab.
Variable se sd : bytes.
Notation apply_txn2 := (apply_txn2 net).
Notation validate_txn2 := (validate_txn2 H net vt pt se sd).

Definition sci_ids (t : txn2) : list id := map (fun i => sce_id (p_val (i2_parent i))) (t2_sci t).
Definition sfi_ids (t : txn2) : list id := map (fun i => sfe_id (p_val (f2_parent i))) (t2_sfi t).
Definition res_ids (t : txn2) : list id := map (fun rs => v2_id (p_val (rs_parent rs))) (t2_res t).

Lemma apply_txn2_enters s t : enters (t2_id t) (sci_ids t ++ sfi_ids t ++ res_ids t) (fun m => apply_txn2 s m t).
Proof.
  unfold Apply.apply_txn2. cbv zeta.
  apply enters_bind; [apply enters_fold; intros i m0 m1; apply spend_sce_sp|].
  apply enters_later; [apply enters_fold_none; intros o m0 m1; apply create_sce_sp|].
  apply enters_bind.
  { apply enters_fold. intros i. apply enters_first; [intros m0 m1; apply spend_sfe_sp|].
    intros m0 m1 S. apply bind_ok in S. destruct S as (c & _ & S). exact (create_sce_sp _ _ _ _ _ S). }
  apply enters_later; [apply enters_fold_none; intros o m0 m1; apply create_sfe_sp|].
  apply enters_later; [apply enters_fold_none; intros c m0 m1; apply create_v2_sp|].
  apply enters_later; [apply enters_fold_none; intros rv m0 m1; apply revise_v2_sp|].
  apply enters_first.
  { apply enters_fold. intros rs. apply enters_first; [intros m0 m1; apply resolve_v2_sp|]. apply enters_later.
    - destruct (rs_res rs); [intros m0 m1; apply create_v2_sp | |]; intros m0 m1 S; inversion S; reflexivity.
    - destruct (match rs_res rs with RRenewal rn => _ | RProof _ => _ | RExpiration => _ end) as [renter host].
      apply enters_later; intros m0 m1; apply create_sce_sp. }
  intros m0 m' E. transitivity (m_spends (fold_left (fun m a => create_att m (at_id a)) (t2_att t) m0)); [destruct (t2_new_foundation t); inversion E; reflexivity|].
  apply (keeps_fold_left (fun m1 => m_spends m1 = m_spends m0)); [intros a m1 _ E1; exact E1 | reflexivity].
Qed.

Theorem apply_txn2_spends s m t m' : apply_txn2 s m t = Ok m' ->
  ext m m' /\ Forall (fun i => is_spent m' i = true) (sci_ids t ++ sfi_ids t ++ res_ids t).
Proof. intros E. exact (entered_spent _ _ _ _ (apply_txn2_enters s t m m' E)). Qed.

Theorem validate_txn2_fresh s m t : validate_txn2 s m t = Ok tt ->
  Forall (fun i => is_spent m i = false) (sci_ids t) /\ NoDup (sci_ids t) /\
  Forall (fun i => is_spent m i = false) (sfi_ids t) /\ NoDup (sfi_ids t) /\
  Forall (fun i => is_spent m i = false) (res_ids t) /\ NoDup (res_ids t).
Proof.
  intros V. destruct (validate_txn2_ok H net vt pt se sd s m t V) as (_ & V1 & V2 & V3 & _).
  destruct (v2_inputs_distinct_unspent_mature H net vt pt se sd s m t V1) as [F1 N1]. destruct (v2_siafund_inputs_ok H net vt pt se sd s m t V2) as [F2 N2].
  destruct (v2_contracts_ok H net vt s m t V3) as (_ & F3 & N3).
  unfold sci_ids, sfi_ids, res_ids. repeat split; try assumption; apply Forall_map; (eapply Forall_impl; [|eassumption]); cbv beta; tauto.
Qed.

(* the step of ValidateBlock's loop over the v2 transactions: validate in the MidState reached so far, then apply *)
Definition vstep (s : lstate) (m : mid) (t : txn2) : R mid := do _ <- validate_txn2 s m t; apply_txn2 s m t.
Lemma validate_block_ok s b : validate_block H net vt pt se sd s b = Ok tt ->
  validate_orphan net s b = Ok tt /\ validate_supplement net s b = Ok tt /\
  exists m1 m2, validate_txns1 H net vt se sd s (new_mid s) (b_txns b) (b_supp b) = Ok m1 /\ fold_r (vstep s) (b_v2txns b) m1 = Ok m2.
Proof.
  unfold validate_block. intros V. apply bind_ok in V. destruct V as ([] & V1 & V). apply bind_ok in V. destruct V as ([] & V2 & V).
  destruct (b_is_v2 b && negb (b_commit_ok b)); [discriminate|].
  apply bind_ok in V. destruct V as (m1 & E1 & V). apply bind_ok in V. destruct V as (m2 & E2 & _). eauto 6.
Qed.

Theorem block_no_double_spend s (sel : txn2 -> list id) :
  (forall m t, validate_txn2 s m t = Ok tt -> Forall (fun i => is_spent m i = false) (sel t) /\ NoDup (sel t)) ->
  (forall m t m', apply_txn2 s m t = Ok m' -> ext m m' /\ Forall (fun i => is_spent m' i = true) (sel t)) ->
  forall txns m m', fold_r (vstep s) txns m = Ok m' ->
  NoDup (flat_map sel txns) /\ Forall (fun i => is_spent m i = false) (flat_map sel txns).
Proof.
  intros Hval Happ txns m m' E. assert (C : consumes m m' (flat_map sel txns)); [|destruct C as (_ & N & F & _); split; assumption].
  refine (consumes_fold (vstep s) sel txns _ m m' E). intros m0 t m1 E0. unfold vstep in E0. apply bind_ok in E0. destruct E0 as ([] & V & A).
  destruct (Hval _ _ V) as [F N]. destruct (Happ _ _ _ A) as [X S]. repeat split; assumption.
Qed.

Lemma vstep_consumes s m t m' : vstep s m t = Ok m' -> consumes m m' (sci_ids t) /\ consumes m m' (sfi_ids t) /\ consumes m m' (res_ids t).
Proof.
  unfold vstep. intros E. apply bind_ok in E. destruct E as ([] & V & A).
  destruct (validate_txn2_fresh s m t V) as (F1 & N1 & F2 & N2 & F3 & N3). destruct (apply_txn2_spends s m t m' A) as [X S].
  apply Forall_app in S. destruct S as [S1 S]. apply Forall_app in S. destruct S as [S2 S3]. repeat split; assumption.
Qed.

Theorem v2_block_no_double_spend s b : validate_block H net vt pt se sd s b = Ok tt ->
  NoDup (flat_map sci_ids (b_v2txns b)) /\ NoDup (flat_map sfi_ids (b_v2txns b)) /\ NoDup (flat_map res_ids (b_v2txns b)).
Proof.
  intros V. destruct (validate_block_ok s b V) as (_ & _ & m1 & m2 & _ & E).
  repeat split; refine (proj1 (proj2 (consumes_fold (vstep s) _ _ _ _ _ E))); intros m t m' E3; apply vstep_consumes in E3; tauto.
Qed.
End Block.
