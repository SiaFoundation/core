(* No siafund element is spent twice across the v1 and v2 transactions of a block. *)
From Coq Require Import ZArith List Bool Lia.
From Sia Require Import Prim.Result Prim.Tok Policy.Model Ledger.Types Ledger.Mid Ledger.Validate Ledger.Apply Ledger.Proofs Ledger.Spends Ledger.SpendsV1.
Import ListNotations.
Open Scope Z_scope.

Section Block1b.
Variable H : bytes -> bytes.
Variable net : lnetwork.
Variable vt : vtab.
Variable pt : ptab.
Variable se sd : bytes.

Definition v1_sfi_ids (t : txn1) : list id := map f1_parent (t1_sfi t).

Theorem mixed_block_no_double_spend_sf s b : validate_block H net vt pt se sd s b = Ok tt ->
  NoDup (flat_map v1_sfi_ids (b_txns b) ++ flat_map sfi_ids (b_v2txns b)).
Proof.
  apply mixed_consume.
  - intros m t u m' V A. destruct (validate_txn1_inputs_fresh H net vt se sd s m t u V) as [_ [F N]]. destruct (apply_txn1_inputs_spent net s m t u m' A) as (X & _ & S).
    repeat split; assumption.
  - intros m t m' E. exact (proj1 (proj2 (vstep_consumes H net vt pt se sd s m t m' E))).
Qed.
End Block1b.
