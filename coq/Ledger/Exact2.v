(* C08, the other direction: a height rule of the v2 transaction path reports its error only when the height is on the wrong
   side of the bound. The height rules are a table, code by code ([why2]); every function of the path reports only codes
   of the path's range, and the code of a height rule only when the table's condition holds ([ok2]). The code of a rule
   can therefore come from the site of that rule alone. *)
From Coq Require Import ZArith List Bool Lia.
From Sia Require Import Prim.Result Prim.Tok Policy.Model Ledger.Types Ledger.Mid Ledger.Validate Ledger.Proofs.
Import ListNotations.
Open Scope Z_scope.

(* [fails r P]: every error code [r] can report satisfies [P] *)
Definition fails {A} (r : R A) (P : Z -> Prop) : Prop := forall c, r = Err c -> P c.

Lemma fails_ok {A} (a : A) P : fails (Ok a) P.
Proof. intros c E. discriminate E. Qed.
Lemma fails_err {A} k (P : Z -> Prop) : P k -> fails (err k : R A) P.
Proof. intros Pk c E. injection E as <-. exact Pk. Qed.
Lemma fails_ne {A} (r : R A) P : (forall c, r <> Err c) -> fails r P.
Proof. intros N c E. destruct (N c E). Qed.
Lemma fails_mono {A} (r : R A) (P Q : Z -> Prop) : fails r P -> (forall c, P c -> Q c) -> fails r Q.
Proof. intros F PQ c E. exact (PQ c (F c E)). Qed.
Lemma fails_bind {A B} (a : R A) (f : A -> R B) P : fails a P -> (forall x, fails (f x) P) -> fails (bind a f) P.
Proof. intros Fa Ff c E. apply bind_err in E. destruct E as [E | (x & _ & E)]; [exact (Fa c E) | exact (Ff x c E)]. Qed.
(* a site [if b then err k else r]. At a height rule, [P k] is the table's condition and follows from the test: [fails_rule]
   hands over [b = true]. At every other check the code satisfies [P] whatever the test was: [fails_check]. *)
Lemma fails_rule {A} (b : bool) k (r : R A) (P : Z -> Prop) : (b = true -> P k) -> fails r P -> fails (if b then err k else r) P.
Proof. intros Pk Fr. destruct b; [exact (fails_err k P (Pk eq_refl)) | exact Fr]. Qed.
Lemma fails_check {A} (b : bool) k (r : R A) (P : Z -> Prop) : P k -> fails r P -> fails (if b then err k else r) P.
Proof. intros Pk. apply fails_rule. intros _. exact Pk. Qed.

(* induction over the parts [x :: r] of a list [L]: every [x] met lies in [L] *)
Lemma part_ind {A} (L : list A) (Q : list A -> Prop) : Q [] -> (forall x r, In x L -> Q r -> Q (x :: r)) -> Q L.
Proof.
  intros Q0 Qc. assert (G : forall l, incl l L -> Q l); [|exact (G L (incl_refl L))].
  induction l as [|x r IH]; intros Hl; [exact Q0|]. apply incl_cons_inv in Hl. exact (Qc x r (proj1 Hl) (IH (proj2 Hl))).
Qed.

Lemma cadd_ne a b c : cadd a b <> Err c.
Proof. unfold cadd. destruct (C128 <=? a + b); discriminate. Qed.
Lemma cdiv64_ne a b c : cdiv64 a b <> Err c.
Proof. unfold cdiv64. destruct (b =? 0); discriminate. Qed.
Lemma v2_tax_ne fc c : v2_tax fc <> Err c.
Proof. unfold v2_tax. intros E. apply bind_err in E. destruct E as [E | (x & _ & E)]; [exact (cadd_ne _ _ _ E) | exact (cdiv64_ne _ _ _ E)]. Qed.
Lemma csum_ne l : forall acc c, csum l acc <> Err c.
Proof. induction l as [|x l IH]; intros acc c E; cbn [csum] in E; [discriminate|]. apply bind_err in E. destruct E as [E | (y & _ & E)]; [exact (cadd_ne _ _ _ E) | exact (IH _ _ E)]. Qed.

(* split a hypothesis [H : e = Err c] along binds, conditionals and matches down to the [err k] that produced the error; the
   arithmetic, which reports none, is closed on the way *)
Ltac split_err H :=
  repeat match type of H with
  | Ok _ = Err _ => discriminate H
  | Panic _ = Err _ => discriminate H
  | cadd _ _ = Err _ => exfalso; exact (cadd_ne _ _ _ H)
  | v2_tax _ = Err _ => exfalso; exact (v2_tax_ne _ _ H)
  | csum _ _ = Err _ => exfalso; exact (csum_ne _ _ _ H)
  | err _ = Err _ => unfold err in H
  | bind ?a _ = Err _ => let x := fresh "x" in apply bind_err in H; destruct H as [H | (x & _ & H)]
  | (if ?b then _ else _) = Err _ => destruct b
  | (let '(_, _) := ?p in _) = Err _ => destruct p
  end.
(* a code [k] in the range of a table of rules [lo <= k <= hi /\ why k] that is not the code of a rule: [why k] is [True] *)
Ltac plain := split; [lia | exact I].
(* [fails e P] where every site [split_err] reaches in [e] reports such a code *)
Ltac plains := let E := fresh "E" in intros ? E; split_err E; injection E as <-; plain.

Section Exact2.
Variable H : bytes -> bytes.
Variable net : lnetwork.
Variable vt : vtab.
Variable pt : ptab.
Variable se sd : bytes.
Notation validate_policy := (validate_policy H vt pt se sd).
Notation validate_ephemeral_sc := (validate_ephemeral_sc net).
Notation validate_ephemeral_sf := (validate_ephemeral_sf net).
Notation validate_v2_siacoins := (validate_v2_siacoins H net vt pt se sd).
Notation validate_v2_siafunds := (validate_v2_siafunds H net vt pt se sd).
Notation check_sigs := (check_sigs vt).
Notation validate_contract := (validate_contract vt).
Notation validate_revision := (validate_revision net vt).
Notation validate_renewal := (validate_renewal vt).
Notation validate_resolution := (validate_resolution H vt).
Notation check_resolutions := (check_resolutions H vt).
Notation validate_v2_contracts := (validate_v2_contracts H net vt).
Notation validate_attestations := (validate_attestations vt).
Notation validate_txn2 := (validate_txn2 H net vt pt se sd).
Notation sci_loop := (sci_loop H net vt pt se sd).
Notation sfi_loop := (sfi_loop H net vt pt se sd).
Notation fc_loop := (fc_loop vt).
Notation rev_loop := (rev_loop net vt).

(* the contract a revision is checked against: the latest revision of the block, or the presented one *)
Definition current (m : mid) (e : fce2) : R fc2 :=
  match elem_idx m (v2_id e) with
  | Some i => match nth_error (m_v2fces m) i with
              | Some d => match d_v2_rev d with Some r => Ok r | None => Ok (v2_fc e) end
              | None => Panic PIndex
              end
  | None => Ok (v2_fc e)
  end.
Lemma current_ne m e c : current m e <> Err c.
Proof. unfold current. destruct (elem_idx m _); [|discriminate]. destruct (nth_error _ _); [|discriminate]. destruct (d_v2_rev _); discriminate. Qed.
Definition RenewalOf (l : list res2) (fc : fc2) : Prop := exists rs rn, In rs l /\ rs_res rs = RRenewal rn /\ fc = rn_new rn.
(* a contract formed by the transaction: a new contract or the new contract of a renewal *)
Definition Formed (t : txn2) (fc : fc2) : Prop := (exists x, In x (t2_fc t) /\ fc = snd x) \/ RenewalOf (t2_res t) fc.

Section Txn.
Variables (s : lstate) (m : mid) (t : txn2).

(* the height rules of ValidateV2Transaction on [t]: the code of each, and what the child height was compared with *)
Definition why2 (c : Z) : Prop :=
  match c with
  | 70 => child s < ln_v2_allow net
  | 76 => exists i, In i (t2_sci t) /\ child s < sce_maturity (p_val (i2_parent i))
  | 101 => exists fc, Formed t fc /\ c_proof_height fc < child s
  | 115 => exists rv, In rv (t2_rev t) /\ c_proof_height (v2_fc (p_val (r2_parent rv))) < child s
  | 118 => exists rv cur, In rv (t2_rev t) /\ current m (p_val (r2_parent rv)) = Ok cur /\ c_proof_height cur < child s
  | 124 => exists rv, In rv (t2_rev t) /\ c_proof_height (r2_rev rv) < child s
  | 136 => exists rs sp, In rs (t2_res t) /\ rs_res rs = RProof sp /\ child s < c_proof_height (v2_fc (p_val (rs_parent rs)))
  | 140 => exists rs, In rs (t2_res t) /\ rs_res rs = RExpiration /\ child s <= c_exp_height (v2_fc (p_val (rs_parent rs)))
  | _ => True
  end.
Definition ok2 (c : Z) : Prop := 70 <= c <= 143 /\ why2 c.

Lemma overflow_fails : fails (validate_v2_overflow t) ok2.
Proof. unfold validate_v2_overflow. cbv zeta. plains. Qed.
Lemma policy_fails sh sp a e1 e2 : ok2 e1 -> ok2 e2 -> fails (validate_policy s sh sp a e1 e2) ok2.
Proof.
  intros O1 O2. unfold Validate.validate_policy. apply fails_check; [exact O1|].
  destruct (verify_policy _ _ _ _ _ _ _ _ _); [apply fails_ok | apply fails_err; exact O2 | discriminate].
Qed.
Lemma eph_sc_fails p : fails (validate_ephemeral_sc s m p) ok2.
Proof.
  unfold Validate.validate_ephemeral_sc. destruct (elem_idx m (sce_id (p_val p))) as [j|]; [|plains]. destruct (nth_error (m_sces m) j); plains.
Qed.
Lemma eph_sf_fails p : fails (validate_ephemeral_sf s m p) ok2.
Proof.
  unfold Validate.validate_ephemeral_sf. destruct (elem_idx m (sfe_id (p_val p))) as [j|]; [|plains]. destruct (nth_error (m_sfes m) j); plains.
Qed.
Lemma out_sco_fails l : forall acc, fails (out_sco l acc) ok2.
Proof.
  induction l as [|[i o] l IH]; intros acc; cbn [out_sco]; [apply fails_ok|].
  apply fails_check; [plain|]. apply fails_bind; [apply fails_ne, cadd_ne | intros a; apply IH].
Qed.
Lemma out_fc_ne l : forall acc c, out_fc l acc <> Err c.
Proof. induction l as [|[i fc] l IH]; intros acc c E; cbn [out_fc] in E; [discriminate|]. split_err E. exact (IH _ _ E). Qed.
Lemma io_res_ne l : forall io c, io_res l io <> Err c.
Proof.
  induction l as [|rs l IH]; intros io c E; cbn [io_res] in E; [discriminate|].
  destruct (rs_res rs); try exact (IH _ _ E). split_err E. exact (IH _ _ E).
Qed.

(* the loops: by [part_ind], so that the witness of a height rule is an element of the transaction *)
Lemma sci_loop_fails sh : forall seen, fails (sci_loop s m sh (t2_sci t) seen) ok2.
Proof.
  pattern (t2_sci t). apply part_ind; [intros seen; apply fails_ok | intros i r Hi IH seen]. cbn [sci_loop]. cbv zeta.
  apply fails_check; [plain|]. apply fails_check; [plain|].
  apply fails_rule; [intros Lt%Z.ltb_lt; split; [lia | exists i; split; [exact Hi | exact Lt]]|].
  apply fails_bind.
  { destruct (p_leaf (i2_parent i) =? UNASSIGNED); [apply eph_sc_fails|]. plains. }
  intros _. apply fails_bind; [apply policy_fails; plain | intros _; apply IH].
Qed.
Lemma siacoins_fails : fails (validate_v2_siacoins s m t) ok2.
Proof.
  unfold Validate.validate_v2_siacoins. apply fails_bind; [exact (sci_loop_fails _ []) | intros _].
  apply fails_bind; [apply fails_ne, csum_ne | intros insum].
  apply fails_bind; [apply out_sco_fails | intros o1].
  apply fails_bind; [apply fails_ne, out_fc_ne | intros o2].
  apply fails_bind; [apply fails_ne, io_res_ne | intros io].
  plains.
Qed.

Lemma sfi_loop_fails sh l : forall seen, fails (sfi_loop s m sh l seen) ok2.
Proof.
  induction l as [|i r IH]; intros seen; cbn [sfi_loop]; [apply fails_ok|]. cbv zeta.
  apply fails_check; [plain|]. apply fails_check; [plain|].
  apply fails_bind.
  { destruct (p_leaf (f2_parent i) =? UNASSIGNED); [apply eph_sf_fails|]. plains. }
  intros _. apply fails_bind; [apply policy_fails; plain | intros _; apply IH].
Qed.
Lemma siafunds_fails : fails (validate_v2_siafunds s m t) ok2.
Proof.
  unfold Validate.validate_v2_siafunds. apply fails_bind; [exact (sfi_loop_fails _ _ []) | intros _]. cbv zeta.
  apply fails_bind; [|intros x; plains].
  generalize 0 at 2 as acc. induction (t2_sfo t) as [|[i [v a]] r IH]; intros acc; [apply fails_ok|]. cbv beta iota zeta fix.
  apply fails_check; [plain | apply IH].
Qed.

Lemma sigs_fails fc rk hk : fails (check_sigs fc rk hk) ok2.
Proof. unfold Validate.check_sigs. plains. Qed.
Lemma contract_fails fc : Formed t fc -> fails (validate_contract s fc) ok2.
Proof.
  intros F. unfold Validate.validate_contract. apply fails_check; [plain|].
  apply fails_rule; [intros Lt%Z.ltb_lt; split; [lia | exists fc; split; [exact F | exact Lt]]|].
  do 4 (apply fails_check; [plain|]). apply sigs_fails.
Qed.
Lemma revision_fails rv : In rv (t2_rev t) -> fails (validate_revision s m (p_val (r2_parent rv)) (r2_rev rv)) ok2.
Proof.
  intros Hin c E. unfold Validate.validate_revision in E. apply bind_err in E. destruct E as [E | (cur & Ec & E)]; [destruct (current_ne _ _ _ E)|].
  revert c E.
  apply fails_bind; [apply fails_ne, cadd_ne | intros cs]. apply fails_bind; [apply fails_ne, cadd_ne | intros rs].
  apply fails_check; [plain|]. apply fails_check; [plain|].
  apply fails_rule; [intros Lt%Z.ltb_lt; split; [lia | exists rv, cur; split; [exact Hin | split; [exact Ec | exact Lt]]]|].
  do 5 (apply fails_check; [plain|]).
  apply fails_rule; [intros Lt2%Z.ltb_lt; split; [lia | exists rv; split; [exact Hin | exact Lt2]]|].
  apply fails_check; [plain | apply sigs_fails].
Qed.
Lemma renewal_fails fc rn : Formed t (rn_new rn) -> fails (validate_renewal s fc rn) ok2.
Proof.
  intros F. unfold Validate.validate_renewal. apply fails_check; [plain|]. apply fails_check; [plain|].
  do 4 (apply fails_bind; [apply fails_ne, cadd_ne | intros ?]). apply fails_check; [plain|].
  apply fails_bind; [apply fails_ne, cadd_ne | intros c1]. apply fails_bind; [apply fails_ne, v2_tax_ne | intros tx].
  do 2 (apply fails_bind; [apply fails_ne, cadd_ne | intros ?]). apply fails_check; [plain|].
  apply fails_bind; [exact (contract_fails _ F) | intros _]. plains.
Qed.
Lemma parent2_fails p rv rs : fails (validate_parent2 s m p rv rs) ok2.
Proof. unfold validate_parent2. cbv zeta. plains. Qed.
Lemma resolution_fails rs : In rs (t2_res t) -> fails (validate_resolution s rs) ok2.
Proof.
  intros Hin. unfold Validate.validate_resolution. cbv zeta. destruct (rs_res rs) as [rn|sp|] eqn:Er.
  - apply renewal_fails. right. exists rs, rn. split; [exact Hin | split; [exact Er | reflexivity]].
  - apply fails_rule; [intros Lt%Z.ltb_lt; split; [lia | exists rs, sp; split; [exact Hin | split; [exact Er | exact Lt]]]|].
    plains.
  - apply fails_rule; [intros Le%Z.leb_le; split; [lia | exists rs; split; [exact Hin | split; [exact Er | exact Le]]] | apply fails_ok].
Qed.
Lemma check_resolutions_fails revised : forall resolved, fails (check_resolutions s m revised (t2_res t) resolved) ok2.
Proof.
  pattern (t2_res t). apply part_ind; [intros resolved; apply fails_ok | intros rs r Hi IH resolved]. cbn [Validate.check_resolutions].
  apply fails_bind; [apply parent2_fails | intros _]. apply fails_bind; [exact (resolution_fails _ Hi) | intros _; apply IH].
Qed.
Lemma fc_loop_fails : fails (fc_loop s (t2_fc t)) ok2.
Proof.
  pattern (t2_fc t). apply part_ind; [apply fails_ok | intros [i fc] r Hi IH]. cbn [fc_loop].
  apply fails_bind; [|intros _; exact IH]. apply contract_fails. left. exists (i, fc). split; [exact Hi | reflexivity].
Qed.
Lemma rev_loop_fails : forall revised, fails (rev_loop s m (t2_rev t) revised) ok2.
Proof.
  pattern (t2_rev t). apply part_ind; [intros revised; apply fails_ok | intros rv r Hi IH revised]. cbn [rev_loop].
  apply fails_bind; [apply parent2_fails | intros _].
  apply fails_rule; [intros Lt%Z.ltb_lt; split; [lia | exists rv; split; [exact Hi | exact Lt]]|].
  apply fails_bind; [exact (revision_fails _ Hi) | intros _; apply IH].
Qed.
Lemma contracts_fails : fails (validate_v2_contracts s m t) ok2.
Proof.
  unfold Validate.validate_v2_contracts. apply fails_bind; [exact fc_loop_fails | intros _].
  apply fails_bind; [exact (rev_loop_fails []) | intros revised]. exact (check_resolutions_fails _ []).
Qed.

Lemma attestations_fails : fails (validate_attestations t) ok2.
Proof.
  unfold Validate.validate_attestations. induction (t2_att t) as [|a r IH]; [apply fails_ok|]. cbv beta iota zeta fix.
  apply fails_check; [plain|]. apply fails_check; [plain | exact IH].
Qed.
Lemma foundation_fails : fails (validate_foundation_update s t) ok2.
Proof. unfold validate_foundation_update. destruct (t2_new_foundation t); plains. Qed.

Lemma txn2_fails : fails (validate_txn2 s m t) ok2.
Proof.
  unfold Validate.validate_txn2.
  apply fails_rule; [intros Lt%Z.ltb_lt; split; [lia | exact Lt]|].
  apply fails_bind; [exact overflow_fails | intros _]. apply fails_check; [plain|]. apply fails_check; [plain|].
  apply fails_bind; [exact siacoins_fails | intros _]. apply fails_bind; [exact siafunds_fails | intros _].
  apply fails_bind; [exact contracts_fails | intros _]. apply fails_bind; [exact attestations_fails | intros _]. exact foundation_fails.
Qed.
End Txn.

Theorem txn2_height_errors s m t c : validate_txn2 s m t = Err c ->
  70 <= c <= 143 /\
  (c = 70 -> child s < ln_v2_allow net) /\
  (c = 76 -> exists i, In i (t2_sci t) /\ child s < sce_maturity (p_val (i2_parent i))) /\
  (c = 101 -> exists fc, Formed t fc /\ c_proof_height fc < child s) /\
  (c = 115 -> exists rv, In rv (t2_rev t) /\ c_proof_height (v2_fc (p_val (r2_parent rv))) < child s) /\
  (c = 118 -> exists rv cur, In rv (t2_rev t) /\ current m (p_val (r2_parent rv)) = Ok cur /\ c_proof_height cur < child s) /\
  (c = 124 -> exists rv, In rv (t2_rev t) /\ c_proof_height (r2_rev rv) < child s) /\
  (c = 136 -> exists rs sp, In rs (t2_res t) /\ rs_res rs = RProof sp /\ child s < c_proof_height (v2_fc (p_val (rs_parent rs)))) /\
  (c = 140 -> exists rs, In rs (t2_res t) /\ rs_res rs = RExpiration /\ child s <= c_exp_height (v2_fc (p_val (rs_parent rs)))).
Proof. intros E. destruct (txn2_fails s m t c E) as [Rg W]. split; [exact Rg|]. repeat split; intros ->; exact W. Qed.
End Exact2.
Print Assumptions txn2_height_errors.
