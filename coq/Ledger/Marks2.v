(* C02: every record keeps the slot map consistent and the diff of the followed element in place ([good]), and so does a
   whole v2 transaction whose IDs respect their kinds ([ids_ok]). Stated once for an element of any kind; the siacoin case
   ([TxOK], [apply_txn2_good]) at the end. *)
From Coq Require Import ZArith List Bool Lia.
From Sia Require Import Prim.Result Prim.Tok Policy.Model Ledger.Types Ledger.Mid Ledger.Validate Ledger.Apply Ledger.Proofs Ledger.Spends.
From Sia Require Import Ledger.Marks1.
Import ListNotations.
Open Scope Z_scope.

Lemma is_spent_cons m' m i j tx : m_spends m' = (i, tx) :: m_spends m -> i <> j -> is_spent m' j = is_spent m j.
Proof. intros E Ne. unfold is_spent, spent_in. rewrite E. cbn [assoc]. rewrite beq_false by congruence. reflexivity. Qed.
Lemma is_spent_same m' m j : m_spends m' = m_spends m -> is_spent m' j = is_spent m j.
Proof. intros E. unfold is_spent, spent_in. rewrite E. reflexivity. Qed.

Section Good.
Variable kind_of : id -> kind.
Variable tid : id.
Variable tlf : Z.
Notation WK := (WK kind_of).
Notation tracked := (tracked kind_of tid tlf).

(* once the followed ID is entered in the spends map, its diff sits where the slot map says, with the presented leaf
   index and the spent mark *)
Definition good (m : mid) : Prop := WK m /\ (is_spent m tid = true -> tracked m).

Lemma good_new s : good (new_mid s).
Proof. split; [apply wk_new | discriminate]. Qed.

Lemma good_records m m' kd i lf fl : good m -> kind_of i = kd -> records m m' kd i lf fl ->
  (m_spends m' = m_spends m \/ exists tx, m_spends m' = (i, tx) :: m_spends m) ->
  (i = tid -> is_spent m' tid = true -> lf = tlf /\ fl = true) -> good m'.
Proof.
  intros [W T] Ki R Sp Hm. destruct (tracked_records kind_of tid tlf m m' kd i lf fl W Ki R) as [T1 T2]. split; [exact (wk_records kind_of _ _ _ _ _ _ W Ki R)|].
  intros S'. destruct (list_eq_dec N.eq_dec i tid) as [Eq|Ne]; [destruct (Hm Eq S'); apply T2; assumption|].
  apply T1; [exact Ne|]. apply T. rewrite <- S'. symmetry. destruct Sp as [Sp|[tx Sp]]; [apply is_spent_same; exact Sp | exact (is_spent_cons _ _ _ _ _ Sp Ne)].
Qed.

Lemma create_sce_good i o mt : kind_of i = KSC -> i <> tid -> keeps good (fun m => create_sce m i o mt).
Proof.
  intros Ki Ne m m' E G. destruct (create_sce_records _ _ _ _ _ E) as [fl R].
  apply (good_records m m' _ i _ _ G Ki R); [left; exact (create_sce_sp _ _ _ _ _ E) | contradiction].
Qed.
Lemma spend_sce_good e lf tx : kind_of (sce_id e) = KSC -> (sce_id e = tid -> lf = tlf) -> keeps good (fun m => spend_sce m e lf tx).
Proof.
  intros Ki Hl m m' E G. pose proof (spend_sce_records _ _ _ _ _ E) as R.
  apply (good_records m m' _ _ _ _ G Ki R); [right; eexists; exact (spend_sce_sp _ _ _ _ _ E) | auto].
Qed.
Lemma create_sfe_good i v a : kind_of i = KSF -> i <> tid -> keeps good (fun m => create_sfe m i v a).
Proof.
  intros Ki Ne m m' E G. destruct (create_sfe_records _ _ _ _ _ E) as [fl R].
  apply (good_records m m' _ i _ _ G Ki R); [left; exact (create_sfe_sp _ _ _ _ _ E) | contradiction].
Qed.
Lemma spend_sfe_good e lf tx : kind_of (sfe_id e) = KSF -> (sfe_id e = tid -> lf = tlf) -> keeps good (fun m => spend_sfe m e lf tx).
Proof.
  intros Ki Hl m m' E G. pose proof (spend_sfe_records _ _ _ _ _ E) as R.
  apply (good_records m m' _ _ _ _ G Ki R); [right; eexists; exact (spend_sfe_sp _ _ _ _ _ E) | auto].
Qed.
Lemma create_v2_good i fc : kind_of i = KV2 -> i <> tid -> keeps good (fun m => create_v2 m i fc).
Proof.
  intros Ki Ne m m' E G. destruct (create_v2_records _ _ _ _ E) as [fl R].
  apply (good_records m m' _ i _ _ G Ki R); [left; exact (create_v2_sp _ _ _ _ E) | contradiction].
Qed.
Lemma resolve_v2_good e lf kd tx : kind_of (v2_id e) = KV2 -> (v2_id e = tid -> lf = tlf) -> keeps good (fun m => resolve_v2 m e lf kd tx).
Proof.
  intros Ki Hl m m' E G. pose proof (resolve_v2_records _ _ _ _ _ _ E) as R.
  apply (good_records m m' _ _ _ _ G Ki R); [right; eexists; exact (resolve_v2_sp _ _ _ _ _ _ E) | auto].
Qed.
(* a revision enters nothing; the diff it rewrites keeps its mark, and its leaf index unless it records the presented one *)
Lemma revise_v2_good e lf rev : kind_of (v2_id e) = KV2 -> (v2_id e = tid -> lf = tlf) -> keeps good (fun m => revise_v2 m e lf rev).
Proof.
  intros Ki Hl m m' E G. destruct (revise_v2_records kind_of _ _ _ _ _ (proj1 G) Ki E) as (lf' & fl & R & Old).
  pose proof (revise_v2_sp _ _ _ _ _ E) as Sp. apply (good_records m m' _ _ _ _ G Ki R); [left; exact Sp|].
  intros Eq S'. rewrite (is_spent_same _ _ _ Sp) in S'. destruct (proj2 G S') as (k & x & Ek & Nx & Lx & Fx).
  rewrite <- Eq, Ki in Nx. rewrite <- Eq in Ek. destruct (Old k x Ek Nx) as [-> [->| ->]]; auto.
Qed.
Lemma create_att_good i : kind_of i = KAT -> i <> tid -> forall m, good m -> good (create_att m i).
Proof.
  intros Ki Ne m G. pose proof (create_att_records m i) as R. apply (good_records m _ _ i _ _ G Ki R); [left; reflexivity | contradiction].
Qed.

(* what the ID derivation has to provide for one transaction *)
Definition ids_ok (t : txn2) : Prop :=
  Forall (fun i => kind_of (sce_id (p_val (i2_parent i))) = KSC /\ (sce_id (p_val (i2_parent i)) = tid -> p_leaf (i2_parent i) = tlf)) (t2_sci t) /\
  Forall (fun x : id * sco => kind_of (fst x) = KSC /\ fst x <> tid) (t2_sco t) /\
  Forall (fun i => kind_of (sfe_id (p_val (f2_parent i))) = KSF /\ (sfe_id (p_val (f2_parent i)) = tid -> p_leaf (f2_parent i) = tlf) /\
                   kind_of (f2_claim_id i) = KSC /\ f2_claim_id i <> tid) (t2_sfi t) /\
  Forall (fun x : id * (Z * bytes) => kind_of (fst x) = KSF /\ fst x <> tid) (t2_sfo t) /\
  Forall (fun x : id * fc2 => kind_of (fst x) = KV2 /\ fst x <> tid) (t2_fc t) /\
  Forall (fun rv => kind_of (v2_id (p_val (r2_parent rv))) = KV2 /\ (v2_id (p_val (r2_parent rv)) = tid -> p_leaf (r2_parent rv) = tlf)) (t2_rev t) /\
  Forall (fun rs => kind_of (v2_id (p_val (rs_parent rs))) = KV2 /\ (v2_id (p_val (rs_parent rs)) = tid -> p_leaf (rs_parent rs) = tlf) /\
                    kind_of (rs_renter_id rs) = KSC /\ rs_renter_id rs <> tid /\ kind_of (rs_host_id rs) = KSC /\ rs_host_id rs <> tid /\
                    (forall rn, rs_res rs = RRenewal rn -> kind_of (rn_new_id rn) = KV2 /\ rn_new_id rn <> tid)) (t2_res t) /\
  Forall (fun a => kind_of (at_id a) = KAT /\ at_id a <> tid) (t2_att t).

Lemma apply_txn2_keeps_good net s t : ids_ok t -> keeps good (fun m => apply_txn2 net s m t).
Proof.
  intros (O1 & O2 & O3 & O4 & O5 & O6 & O7 & O8). rewrite Forall_forall in O1, O2, O3, O4, O5, O6, O7, O8. apply apply_txn2_keeps.
  - intros i Hi. destruct (O1 i Hi). apply spend_sce_good; assumption.
  - intros x Hx. destruct (O2 x Hx). apply create_sce_good; assumption.
  - intros i Hi. destruct (O3 i Hi) as (? & ? & ? & ?). split; [apply spend_sfe_good | intros o; apply create_sce_good]; assumption.
  - intros x Hx. destruct (O4 x Hx). apply create_sfe_good; assumption.
  - intros x Hx. destruct (O5 x Hx). apply create_v2_good; assumption.
  - intros rv Hr. destruct (O6 rv Hr). apply revise_v2_good; assumption.
  - intros rs Hr. destruct (O7 rs Hr) as (? & ? & ? & ? & ? & ? & Kn). split; [intros kd; apply resolve_v2_good; assumption|].
    split; [intros rn Er; destruct (Kn rn Er); apply create_v2_good; assumption|]. split; intros o; apply create_sce_good; assumption.
  - intros a m Ha. destruct (O8 a Ha). apply create_att_good; assumption.
  - intros m a b G. exact G.
Qed.
End Good.

Section Marks2.
Variable kind_of : id -> kind.
Variable id0 : id.
Variable lf0 : Z.
Hypothesis K0 : kind_of id0 = KSC.
Notation Good := (Good kind_of id0 lf0).

Lemma good_sc m : Good m <-> good kind_of id0 lf0 m.
Proof using K0. unfold Marks1.Good, good. rewrite (tr_tracked kind_of id0 lf0 K0). reflexivity. Qed.
Lemma with_foundation_good m a b : Good m -> Good (with_foundation m a b).
Proof. intros G. exact G. Qed.

Definition TxOK (t : txn2) : Prop :=
  Forall (fun i => kind_of (sce_id (p_val (i2_parent i))) = KSC /\ (sce_id (p_val (i2_parent i)) = id0 -> p_leaf (i2_parent i) = lf0)) (t2_sci t) /\
  Forall (fun x : id * sco => kind_of (fst x) = KSC /\ fst x <> id0) (t2_sco t) /\
  Forall (fun i => kind_of (sfe_id (p_val (f2_parent i))) = KSF /\ kind_of (f2_claim_id i) = KSC /\ f2_claim_id i <> id0) (t2_sfi t) /\
  Forall (fun x : id * (Z * bytes) => kind_of (fst x) = KSF) (t2_sfo t) /\
  Forall (fun x : id * fc2 => kind_of (fst x) = KV2) (t2_fc t) /\
  Forall (fun rv => kind_of (v2_id (p_val (r2_parent rv))) = KV2) (t2_rev t) /\
  Forall (fun rs => kind_of (v2_id (p_val (rs_parent rs))) = KV2 /\ kind_of (rs_renter_id rs) = KSC /\ rs_renter_id rs <> id0 /\
                    kind_of (rs_host_id rs) = KSC /\ rs_host_id rs <> id0 /\ (forall rn, rs_res rs = RRenewal rn -> kind_of (rn_new_id rn) = KV2)) (t2_res t) /\
  Forall (fun a => kind_of (at_id a) = KAT) (t2_att t).

(* the clauses [ids_ok] has beyond those of [TxOK]: an ID whose kind is not that of [id0] is not [id0] *)
Lemma txok_ids t : TxOK t -> ids_ok kind_of id0 lf0 t.
Proof using K0.
  intros (O1 & O2 & O3 & O4 & O5 & O6 & O7 & O8). repeat split; try assumption; (eapply Forall_impl; [|eassumption]); cbv beta.
  - intros i (Kp & Kc & Nc). repeat split; try assumption. congruence.
  - intros x Kx. split; [exact Kx | congruence].
  - intros x Kx. split; [exact Kx | congruence].
  - intros rv Kx. split; [exact Kx | congruence].
  - intros rs (Kp & Kr & Nr & Kh & Nh & Kn). repeat apply conj; try assumption; [congruence | intros rn Er; split; [exact (Kn rn Er) | specialize (Kn rn Er); congruence]].
  - intros a Ka. split; [exact Ka | congruence].
Qed.

Lemma apply_txn2_good net s m t m' : TxOK t -> apply_txn2 net s m t = Ok m' -> Good m -> Good m'.
Proof using K0. intros Ot E G. apply good_sc. apply good_sc in G. exact (apply_txn2_keeps_good kind_of id0 lf0 net s t (txok_ids t Ot) m m' E G). Qed.
End Marks2.
