(* C15 — Currency arithmetic is exact 128-bit arithmetic with faithful overflow reporting.
   Statements only; every theorem is closed by [exact] of a lemma proved elsewhere. *)
From Coq Require Import ZArith.
From Sia Require Import Prim.Result Currency.Model Currency.Proofs Currency.Div.
Open Scope Z_scope.

Theorem C15_add : forall a b, wfc a -> wfc b ->
  wfc (fst (add_wo a b)) /\
  val (fst (add_wo a b)) = (val a + val b) mod (W * W) /\
  (snd (add_wo a b) = true <-> W * W <= val a + val b).
Proof. exact add_exact. Qed.
Print Assumptions C15_add.

Theorem C15_sub : forall a b, wfc a -> wfc b ->
  wfc (fst (sub_wu a b)) /\
  val (fst (sub_wu a b)) = (val a - val b) mod (W * W) /\
  (snd (sub_wu a b) = true <-> val a < val b).
Proof. exact sub_exact. Qed.
Print Assumptions C15_sub.

Theorem C15_mul : forall a b, wfc a -> wfc b ->
  wfc (fst (mul_wo a b)) /\
  val (fst (mul_wo a b)) = (val a * val b) mod (W * W) /\
  (snd (mul_wo a b) = true <-> W * W <= val a * val b).
Proof. exact mul_exact. Qed.
Print Assumptions C15_mul.

Theorem C15_mul64 : forall a v, wfc a -> 0 <= v < W ->
  wfc (fst (mul64_wo a v)) /\
  val (fst (mul64_wo a v)) = (val a * v) mod (W * W) /\
  (snd (mul64_wo a v) = true <-> W * W <= val a * v).
Proof. exact mul64_exact. Qed.
Print Assumptions C15_mul64.

Theorem C15_cmp : forall a b, wfc a -> wfc b ->
  cmp a b = match Z.compare (val a) (val b) with Eq => 0 | Lt => -1 | Gt => 1 end.
Proof. exact cmp_exact. Qed.
Print Assumptions C15_cmp.

(* the panicking forms panic exactly when the exact result does not fit *)
Theorem C15_add_panics_iff : forall a b, wfc a -> wfc b ->
  (val a + val b < W * W -> exists r, add a b = Ok r /\ wfc r /\ val r = val a + val b) /\
  (W * W <= val a + val b -> add a b = Panic POverflow).
Proof. exact add_checked. Qed.
Print Assumptions C15_add_panics_iff.

Theorem C15_sub_panics_iff : forall a b, wfc a -> wfc b ->
  (val b <= val a -> exists r, sub a b = Ok r /\ wfc r /\ val r = val a - val b) /\
  (val a < val b -> sub a b = Panic PUnderflow).
Proof. exact sub_checked. Qed.
Print Assumptions C15_sub_panics_iff.

Theorem C15_mul_panics_iff : forall a b, wfc a -> wfc b ->
  (val a * val b < W * W -> exists r, mul a b = Ok r /\ wfc r /\ val r = val a * val b) /\
  (W * W <= val a * val b -> mul a b = Panic POverflow).
Proof. exact mul_checked. Qed.
Print Assumptions C15_mul_panics_iff.

Theorem C15_mul64_panics_iff : forall a v, wfc a -> 0 <= v < W ->
  (val a * v < W * W -> exists r, mul_64 a v = Ok r /\ wfc r /\ val r = val a * v) /\
  (W * W <= val a * v -> mul_64 a v = Panic POverflow).
Proof. exact mul64_checked. Qed.
Print Assumptions C15_mul64_panics_iff.

Theorem C15_quorem64 : forall c v, wfc c -> 0 < v < W ->
  exists q r, quorem64 c v = Ok (q, r) /\ wfc q /\ val q = val c / v /\ r = val c mod v.
Proof. exact quorem64_exact. Qed.
Print Assumptions C15_quorem64.

Theorem C15_quorem64_zero : forall c, quorem64 c 0 = Panic PDivZero.
Proof. exact quorem64_zero. Qed.
Print Assumptions C15_quorem64_zero.

(* hypotheses are satisfiable at the boundary values the property names *)
Example C15_nonvacuous :
  wfc (mkCur (2^64-1) (2^64-1)) /\ wfc (mkCur 0 (2^63)) /\ wfc (mkCur 1 0) /\
  snd (add_wo (mkCur (2^64-1) (2^64-1)) (mkCur 1 0)) = true /\
  snd (mul_wo (mkCur 0 (2^63)) (mkCur 2 0)) = true /\
  snd (mul_wo (mkCur (2^64-1) 0) (mkCur (2^64-1) 0)) = false.
Proof. vm_compute. repeat split; discriminate || reflexivity. Qed.

(* Div / quoRem by a 128-bit divisor (the trial-quotient algorithm for divisors above 64 bits included): exact quotient
   and remainder for every dividend and every non-zero divisor, no primitive panics; division by zero panics *)
Theorem C15_quorem : forall c v, wfc c -> wfc v -> val v <> 0 ->
  exists q r, quorem c v = Ok (q, r) /\ wfc q /\ wfc r /\ val q = val c / val v /\ val r = val c mod val v.
Proof. exact quorem_exact. Qed.
Print Assumptions C15_quorem.

Theorem C15_quorem_zero : forall c v, val v = 0 -> wfc v -> quorem c v = Panic PDivZero.
Proof. exact quorem_zero. Qed.
Print Assumptions C15_quorem_zero.

Theorem C15_div : forall c v, wfc c -> wfc v -> val v <> 0 -> exists q, div c v = Ok q /\ wfc q /\ val q = val c / val v.
Proof. exact div_exact. Qed.
Print Assumptions C15_div.
