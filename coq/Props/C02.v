(* C02 — no double spend or double resolution. *)
From Coq Require Import ZArith List Bool.
From Sia Require Import Prim.Result Prim.Tok Policy.Model Ledger.Types Ledger.Mid Ledger.Validate Ledger.Apply Ledger.Proofs Ledger.Spends Ledger.SpendsV1 Ledger.SpendsSF Ledger.Persist Ledger.Marks1 Ledger.Marks2 Ledger.Marks3 Ledger.Marks4 Ledger.Marks5 Ledger.Marks6 Ledger.Marks8 Ledger.Marks9 Ledger.Marks10 Ledger.Persist1 Ledger.Kinds Ledger.Fresh Ledger.Fresh2.
Import ListNotations.
Open Scope Z_scope.

(* an accepted v2 transaction spends pairwise distinct outputs, none of them used earlier in the block,
   each either created earlier in this block (ephemeral) or the current unspent leaf of the element store *)
Theorem C02_v2_inputs_distinct_and_live : forall H net vt pt se sd s m t,
  validate_v2_siacoins H net vt pt se sd s m t = Ok tt ->
  Forall (fun i =>
    is_spent m (sce_id (p_val (i2_parent i))) = false /\ sce_maturity (p_val (i2_parent i)) <= child s /\ (p_leaf (i2_parent i) <> UNASSIGNED -> fst (mem_sc s (i2_parent i)) = true) /\ address H (sp_policy (i2_policy i)) = sco_addr (sce_out (p_val (i2_parent i)))) (t2_sci t) /\ NoDup (map (fun i => sce_id (p_val (i2_parent i))) (t2_sci t)).
Proof. exact v2_inputs_distinct_unspent_mature. Qed.
Print Assumptions C02_v2_inputs_distinct_and_live.

(* across blocks: an element whose leaf is marked spent is never accepted again, whatever proof it carries *)
Theorem C02_spent_leaf_rejected : forall s p e,
  nth_error (s_leaves s) (Z.to_nat (p_leaf p)) = Some {| l_elem := e; l_spent := true |} -> fst (mem_sc s p) = false.
Proof. exact mem_spent_rejected. Qed.
Print Assumptions C02_spent_leaf_rejected.

(* and what is accepted is exactly the current unspent leaf at that position *)
Theorem C02_accepted_is_live_leaf : forall s p, fst (mem_sc s p) = true ->
  p_proof_ok p = true /\ nth_error (s_leaves s) (Z.to_nat (p_leaf p)) = Some {| l_elem := ESC (p_val p); l_spent := false |}.
Proof. exact mem_sc_sound. Qed.
Print Assumptions C02_accepted_is_live_leaf.

(* ---- across the transactions of a block ---- *)
(* the MidState's spends map only grows while a transaction is applied, and every element the transaction consumes
   (siacoin inputs, siafund inputs, resolved contracts) is entered *)
Theorem C02_apply_enters_consumed : forall net s m t m', apply_txn2 net s m t = Ok m' ->
  ext m m' /\ Forall (fun i => is_spent m' i = true) (sci_ids t ++ sfi_ids t ++ res_ids t).
Proof. exact apply_txn2_spends. Qed.
Print Assumptions C02_apply_enters_consumed.

(* validation accepts a transaction only if none of the elements it consumes is already entered and none occurs twice *)
Theorem C02_validate_refuses_consumed : forall H net vt pt se sd s m t, validate_txn2 H net vt pt se sd s m t = Ok tt ->
  Forall (fun i => is_spent m i = false) (sci_ids t) /\ NoDup (sci_ids t) /\
  Forall (fun i => is_spent m i = false) (sfi_ids t) /\ NoDup (sfi_ids t) /\
  Forall (fun i => is_spent m i = false) (res_ids t) /\ NoDup (res_ids t).
Proof. exact validate_txn2_fresh. Qed.
Print Assumptions C02_validate_refuses_consumed.

(* hence an accepted block consumes no siacoin element, no siafund element and no v2 contract twice, over all of its
   v2 transactions, in any order and any grouping *)
Theorem C02_block_no_double_spend : forall H net vt pt se sd s b, validate_block H net vt pt se sd s b = Ok tt ->
  NoDup (flat_map sci_ids (b_v2txns b)) /\ NoDup (flat_map sfi_ids (b_v2txns b)) /\ NoDup (flat_map res_ids (b_v2txns b)).
Proof. exact v2_block_no_double_spend. Qed.
Print Assumptions C02_block_no_double_spend.

(* v1 transactions in the same block: validation refuses entered and repeated inputs, applying enters them *)
Theorem C02_v1_validate_refuses_consumed : forall H net vt se sd s m t ts, validate_txn1 H net vt se sd s m t ts = Ok tt ->
  Forall (fun i => is_spent m i = false) (v1_sci_ids t) /\ NoDup (v1_sci_ids t).
Proof. exact validate_txn1_fresh. Qed.
Print Assumptions C02_v1_validate_refuses_consumed.

Theorem C02_v1_apply_enters_consumed : forall net s m t ts m', apply_txn1 net s m t ts = Ok m' ->
  ext m m' /\ Forall (fun i => is_spent m' i = true) (v1_sci_ids t).
Proof. exact apply_txn1_spends. Qed.
Print Assumptions C02_v1_apply_enters_consumed.

(* a block that mixes v1 and v2 transactions spends no siacoin element twice, whichever kind of transaction uses it *)
Theorem C02_mixed_block_no_double_spend : forall H net vt pt se sd s b, validate_block H net vt pt se sd s b = Ok tt ->
  NoDup (flat_map v1_sci_ids (b_txns b) ++ flat_map sci_ids (b_v2txns b)).
Proof. exact mixed_block_no_double_spend. Qed.
Print Assumptions C02_mixed_block_no_double_spend.

(* ... and no siafund element *)
Theorem C02_mixed_block_no_double_spend_siafunds : forall H net vt pt se sd s b, validate_block H net vt pt se sd s b = Ok tt ->
  NoDup (flat_map v1_sfi_ids (b_txns b) ++ flat_map sfi_ids (b_v2txns b)).
Proof. exact mixed_block_no_double_spend_sf. Qed.
Print Assumptions C02_mixed_block_no_double_spend_siafunds.

(* ---- across blocks ---- *)
(* an accepted block without v1 transactions and without expiring v1 contracts leaves every leaf that is marked spent
   marked spent: no diff of the block rewrites a spent leaf as unspent (siacoin/siafund diffs with an assigned leaf are
   spends; contract diffs with an assigned leaf are resolutions, or revisions of a contract validation saw live) *)
Theorem C02_spent_persists : forall H net vt pt se sd s b s' m,
  validate_block H net vt pt se sd s b = Ok tt -> apply_block net s b = Ok (s', m) ->
  b_txns b = [] -> b_expiring b = [] -> forall k, SpentAt (s_leaves s) k -> SpentAt (s_leaves s') k.
Proof. exact spent_persist. Qed.
Print Assumptions C02_spent_persists.

(* from the height at which v2 is required, every accepted and applied block is of that kind *)
Theorem C02_v2_era_blocks : forall H net vt pt se sd s b s' m,
  validate_block H net vt pt se sd s b = Ok tt -> apply_block net s b = Ok (s', m) -> ln_v2_require net <= child s ->
  b_txns b = [] /\ b_expiring b = [].
Proof. exact era_v2_only. Qed.
Print Assumptions C02_v2_era_blocks.

(* over any accepted chain of such blocks: a leaf marked spent at some point is never again accepted as the parent of a
   siacoin input, a siafund input, a contract revision or a contract resolution *)
Theorem C02_chain_spent_persists : forall H net vt pt se sd s bs s', chain H net vt pt se sd s bs s' ->
  forall k, SpentAt (s_leaves s) k -> SpentAt (s_leaves s') k.
Proof. exact chain_spent_persist. Qed.
Print Assumptions C02_chain_spent_persists.

Theorem C02_chain_no_respend : forall H net vt pt se sd s bs s' k, chain H net vt pt se sd s bs s' -> SpentAt (s_leaves s) k ->
  forall m t, validate_txn2 H net vt pt se sd s' m t = Ok tt ->
  forall i, In i (t2_sci t) -> p_leaf (i2_parent i) <> UNASSIGNED -> Z.to_nat (p_leaf (i2_parent i)) <> k.
Proof. exact chain_no_respend. Qed.
Print Assumptions C02_chain_no_respend.

Theorem C02_chain_no_respend_siafund : forall H net vt pt se sd s bs s' k, chain H net vt pt se sd s bs s' -> SpentAt (s_leaves s) k ->
  forall m t, validate_txn2 H net vt pt se sd s' m t = Ok tt ->
  forall i, In i (t2_sfi t) -> p_leaf (f2_parent i) <> UNASSIGNED -> Z.to_nat (p_leaf (f2_parent i)) <> k.
Proof. exact chain_no_respend_sf. Qed.
Print Assumptions C02_chain_no_respend_siafund.

Theorem C02_chain_no_rerevise_or_reresolve : forall H net vt pt se sd s bs s' k, chain H net vt pt se sd s bs s' -> SpentAt (s_leaves s) k ->
  forall m t, validate_txn2 H net vt pt se sd s' m t = Ok tt ->
  (forall rv, In rv (t2_rev t) -> Z.to_nat (p_leaf (r2_parent rv)) <> k) /\
  (forall rs, In rs (t2_res t) -> Z.to_nat (p_leaf (rs_parent rs)) <> k).
Proof. exact chain_no_rerevise. Qed.
Print Assumptions C02_chain_no_rerevise_or_reresolve.

(* ---- applying a block marks what it consumed ---- *)
(* The MidState records every element in a slot found through one map from IDs to slice indices shared by all element
   kinds, so this statement needs what the ID derivation (C12) provides, stated here as hypotheses about the block: an ID
   names elements of one kind only ([kind_of], [TxOK]) and nothing in the block is created under the ID of the consumed
   element. Then: after an accepted v2-only block is applied, the leaf of every siacoin input with an assigned leaf index is
   marked spent *)
Theorem C02_consumed_leaf_marked : forall H net vt pt se sd s (kind_of : id -> kind) id0 lf0, kind_of id0 = KSC ->
  forall b s' m t0 i0,
  validate_block H net vt pt se sd s b = Ok tt -> apply_block net s b = Ok (s', m) -> b_txns b = [] -> b_expiring b = [] ->
  Forall (Marks2.TxOK kind_of id0 lf0) (b_v2txns b) ->
  Forall (fun p : id * sco => kind_of (fst p) = KSC /\ fst p <> id0) (b_payouts b) -> kind_of (b_foundation_id b) = KSC -> b_foundation_id b <> id0 ->
  In t0 (b_v2txns b) -> In i0 (t2_sci t0) -> sce_id (p_val (i2_parent i0)) = id0 -> p_leaf (i2_parent i0) = lf0 -> lf0 <> UNASSIGNED ->
  SpentAt (s_leaves s') (Z.to_nat lf0).
Proof. exact Marks3.consumed_leaf_marked. Qed.
Print Assumptions C02_consumed_leaf_marked.

(* ... and with persistence: over any accepted chain of v2-only blocks that follows, no accepted transaction has a siacoin
   input, siafund input, revision or resolution whose parent is that leaf -- no element is consumed twice across blocks *)
Theorem C02_consumed_never_again : forall H net vt pt se sd (kind_of : id -> kind) id0 lf0 s b s1 m t0 i0 bs s',
  kind_of id0 = KSC ->
  validate_block H net vt pt se sd s b = Ok tt -> apply_block net s b = Ok (s1, m) -> b_txns b = [] -> b_expiring b = [] ->
  Forall (Marks2.TxOK kind_of id0 lf0) (b_v2txns b) ->
  Forall (fun p : id * sco => kind_of (fst p) = KSC /\ fst p <> id0) (b_payouts b) -> kind_of (b_foundation_id b) = KSC -> b_foundation_id b <> id0 ->
  In t0 (b_v2txns b) -> In i0 (t2_sci t0) -> sce_id (p_val (i2_parent i0)) = id0 -> p_leaf (i2_parent i0) = lf0 -> lf0 <> UNASSIGNED ->
  chain H net vt pt se sd s1 bs s' ->
  forall mm t, validate_txn2 H net vt pt se sd s' mm t = Ok tt ->
    (forall i, In i (t2_sci t) -> p_leaf (i2_parent i) <> UNASSIGNED -> Z.to_nat (p_leaf (i2_parent i)) <> Z.to_nat lf0) /\
    (forall i, In i (t2_sfi t) -> p_leaf (f2_parent i) <> UNASSIGNED -> Z.to_nat (p_leaf (f2_parent i)) <> Z.to_nat lf0) /\
    (forall rv, In rv (t2_rev t) -> Z.to_nat (p_leaf (r2_parent rv)) <> Z.to_nat lf0) /\
    (forall rs, In rs (t2_res t) -> Z.to_nat (p_leaf (rs_parent rs)) <> Z.to_nat lf0).
Proof. exact Marks4.consumed_never_again. Qed.
Print Assumptions C02_consumed_never_again.

(* the slot map stays consistent through every transaction (no out-of-range slot, hence no index panic, on such blocks) *)
Theorem C02_slot_map_consistent : forall (kind_of : id -> kind) id0 lf0, kind_of id0 = KSC -> forall net s m t m',
  Marks2.TxOK kind_of id0 lf0 t -> apply_txn2 net s m t = Ok m' -> Marks1.Good kind_of id0 lf0 m -> Marks1.Good kind_of id0 lf0 m'.
Proof. exact Marks2.apply_txn2_good. Qed.
Print Assumptions C02_slot_map_consistent.

(* the same for siafund elements *)
Theorem C02_consumed_siafund_leaf_marked : forall H net vt pt se sd s (kind_of : id -> kind) id0 lf0, kind_of id0 = KSF ->
  forall b s' m t0 i0,
  validate_block H net vt pt se sd s b = Ok tt -> apply_block net s b = Ok (s', m) -> b_txns b = [] -> b_expiring b = [] ->
  Forall (Marks6.TxOK kind_of id0 lf0) (b_v2txns b) ->
  Forall (fun p : id * sco => kind_of (fst p) = KSC) (b_payouts b) -> kind_of (b_foundation_id b) = KSC ->
  In t0 (b_v2txns b) -> In i0 (t2_sfi t0) -> sfe_id (p_val (f2_parent i0)) = id0 -> p_leaf (f2_parent i0) = lf0 -> lf0 <> UNASSIGNED ->
  SpentAt (s_leaves s') (Z.to_nat lf0).
Proof. exact consumed_sf_leaf_marked. Qed.
Print Assumptions C02_consumed_siafund_leaf_marked.

Theorem C02_consumed_siafund_never_again : forall H net vt pt se sd (kind_of : id -> kind) id0 lf0 s b s1 m t0 i0 bs s',
  kind_of id0 = KSF ->
  validate_block H net vt pt se sd s b = Ok tt -> apply_block net s b = Ok (s1, m) -> b_txns b = [] -> b_expiring b = [] ->
  Forall (Marks6.TxOK kind_of id0 lf0) (b_v2txns b) ->
  Forall (fun p : id * sco => kind_of (fst p) = KSC) (b_payouts b) -> kind_of (b_foundation_id b) = KSC ->
  In t0 (b_v2txns b) -> In i0 (t2_sfi t0) -> sfe_id (p_val (f2_parent i0)) = id0 -> p_leaf (f2_parent i0) = lf0 -> lf0 <> UNASSIGNED ->
  chain H net vt pt se sd s1 bs s' ->
  forall mm t, validate_txn2 H net vt pt se sd s' mm t = Ok tt ->
    (forall i, In i (t2_sci t) -> p_leaf (i2_parent i) <> UNASSIGNED -> Z.to_nat (p_leaf (i2_parent i)) <> Z.to_nat lf0) /\
    (forall i, In i (t2_sfi t) -> p_leaf (f2_parent i) <> UNASSIGNED -> Z.to_nat (p_leaf (f2_parent i)) <> Z.to_nat lf0) /\
    (forall rv, In rv (t2_rev t) -> Z.to_nat (p_leaf (r2_parent rv)) <> Z.to_nat lf0) /\
    (forall rs, In rs (t2_res t) -> Z.to_nat (p_leaf (rs_parent rs)) <> Z.to_nat lf0).
Proof. exact consumed_sf_never_again. Qed.
Print Assumptions C02_consumed_siafund_never_again.

(* and for v2 contracts: the leaf of every contract an accepted block resolves is marked spent (the resolved diff is the
   only contract diff that can point at the leaf: every entry of the contract slice is registered under its own ID at its
   own index, and every assigned diff points at the live leaf of the contract with its ID) *)
Theorem C02_resolved_leaf_marked : forall H net vt pt se sd s (kind_of : id -> kind) id0 lf0, kind_of id0 = KV2 ->
  forall b s' m t0 rs0,
  validate_block H net vt pt se sd s b = Ok tt -> apply_block net s b = Ok (s', m) -> b_txns b = [] -> b_expiring b = [] ->
  Forall (Marks9.TxOK kind_of id0 lf0) (b_v2txns b) ->
  Forall (fun p : id * sco => kind_of (fst p) = KSC) (b_payouts b) -> kind_of (b_foundation_id b) = KSC ->
  In t0 (b_v2txns b) -> In rs0 (t2_res t0) -> v2_id (p_val (rs_parent rs0)) = id0 -> p_leaf (rs_parent rs0) = lf0 -> lf0 <> UNASSIGNED ->
  SpentAt (s_leaves s') (Z.to_nat lf0).
Proof. exact resolved_leaf_marked. Qed.
Print Assumptions C02_resolved_leaf_marked.

(* a resolved contract is never revised or resolved again across blocks *)
Theorem C02_resolved_never_again : forall H net vt pt se sd (kind_of : id -> kind) id0 lf0 s b s1 m t0 rs0 bs s',
  kind_of id0 = KV2 ->
  validate_block H net vt pt se sd s b = Ok tt -> apply_block net s b = Ok (s1, m) -> b_txns b = [] -> b_expiring b = [] ->
  Forall (Marks9.TxOK kind_of id0 lf0) (b_v2txns b) ->
  Forall (fun p : id * sco => kind_of (fst p) = KSC) (b_payouts b) -> kind_of (b_foundation_id b) = KSC ->
  In t0 (b_v2txns b) -> In rs0 (t2_res t0) -> v2_id (p_val (rs_parent rs0)) = id0 -> p_leaf (rs_parent rs0) = lf0 -> lf0 <> UNASSIGNED ->
  chain H net vt pt se sd s1 bs s' ->
  forall mm t, validate_txn2 H net vt pt se sd s' mm t = Ok tt ->
    (forall i, In i (t2_sci t) -> p_leaf (i2_parent i) <> UNASSIGNED -> Z.to_nat (p_leaf (i2_parent i)) <> Z.to_nat lf0) /\
    (forall i, In i (t2_sfi t) -> p_leaf (f2_parent i) <> UNASSIGNED -> Z.to_nat (p_leaf (f2_parent i)) <> Z.to_nat lf0) /\
    (forall rv, In rv (t2_rev t) -> Z.to_nat (p_leaf (r2_parent rv)) <> Z.to_nat lf0) /\
    (forall rs, In rs (t2_res t) -> Z.to_nat (p_leaf (rs_parent rs)) <> Z.to_nat lf0).
Proof. exact resolved_never_again. Qed.
Print Assumptions C02_resolved_never_again.

(* ---- all eras ---- *)
(* every accepted block -- v1 transactions, v1 contracts revised, proven or expiring, v2 transactions, any mix -- leaves every
   spent leaf spent (v1 contract diffs with an assigned leaf are resolutions or point at a leaf the supplement check saw as
   a live v1 contract) *)
Theorem C02_spent_persists_all_eras : forall H net vt pt se sd s b s' m,
  validate_block H net vt pt se sd s b = Ok tt -> apply_block net s b = Ok (s', m) ->
  forall k, SpentAt (s_leaves s) k -> SpentAt (s_leaves s') k.
Proof. exact spent_persist_all. Qed.
Print Assumptions C02_spent_persists_all_eras.

(* hence over any accepted history: a leaf once marked spent is never again accepted as the parent of a v2 siacoin input,
   siafund input, revision or resolution *)
Theorem C02_history_no_reuse : forall H net vt pt se sd s bs s' k, chain_all H net vt pt se sd s bs s' -> SpentAt (s_leaves s) k ->
  forall m t, validate_txn2 H net vt pt se sd s' m t = Ok tt ->
  (forall i, In i (t2_sci t) -> p_leaf (i2_parent i) <> UNASSIGNED -> Z.to_nat (p_leaf (i2_parent i)) <> k) /\
  (forall i, In i (t2_sfi t) -> p_leaf (f2_parent i) <> UNASSIGNED -> Z.to_nat (p_leaf (f2_parent i)) <> k) /\
  (forall rv, In rv (t2_rev t) -> Z.to_nat (p_leaf (r2_parent rv)) <> k) /\
  (forall rs, In rs (t2_res t) -> Z.to_nat (p_leaf (rs_parent rs)) <> k).
Proof. exact chain_all_no_reuse. Qed.
Print Assumptions C02_history_no_reuse.

(* ... nor as a supplement element of a block with v1 transactions (v1 siacoin or siafund parent, revised, proven or
   expiring v1 contract) *)
Theorem C02_history_no_reuse_v1 : forall H net vt pt se sd s bs s' k, chain_all H net vt pt se sd s bs s' -> SpentAt (s_leaves s) k ->
  forall b, validate_block H net vt pt se sd s' b = Ok tt ->
  (forall u p, In u (b_supp b) -> In p (u_sci u) -> Z.to_nat (p_leaf p) <> k) /\
  (forall u p, In u (b_supp b) -> In p (u_sfi u) -> Z.to_nat (p_leaf p) <> k) /\
  (forall u p, In u (b_supp b) -> In p (u_rev u) -> Z.to_nat (p_leaf p) <> k) /\
  (forall u x, In u (b_supp b) -> In x (u_sp u) -> Z.to_nat (p_leaf (ss_fc x)) <> k) /\
  (forall p, In p (b_expiring b) -> Z.to_nat (p_leaf (fst p)) <> k).
Proof. exact chain_all_no_reuse_v1. Qed.
Print Assumptions C02_history_no_reuse_v1.

(* the siacoin marking theorem with decidable checks of the block in place of its hypotheses: [consistent (declsB b)] (no ID is
   declared with two kinds) and [fresh_sc b] (nothing is created under the ID of a consumed siacoin element, and inputs with
   the same parent ID present the same leaf). Harness and model evaluate both checks on every applied block. *)
Theorem C02_consumed_leaf_marked_checked : forall H net vt pt se sd s b s' m t0 i0,
  validate_block H net vt pt se sd s b = Ok tt -> apply_block net s b = Ok (s', m) -> b_txns b = [] -> b_expiring b = [] ->
  consistent (declsB b) = true -> fresh_sc b = true ->
  In t0 (b_v2txns b) -> In i0 (t2_sci t0) -> p_leaf (i2_parent i0) <> UNASSIGNED ->
  SpentAt (s_leaves s') (Z.to_nat (p_leaf (i2_parent i0))).
Proof. exact consumed_marked_checked. Qed.
Print Assumptions C02_consumed_leaf_marked_checked.

(* the same for siafund inputs and for resolved v2 contracts: [fresh_sf b] and [fresh_v2 b] check, for every consumed siafund
   element (every resolved contract) with an assigned leaf, that the block creates nothing under its ID and that every input
   (revision, resolution) with the same parent ID presents the same leaf *)
Theorem C02_consumed_siafund_leaf_marked_checked : forall H net vt pt se sd s b s' m t0 i0,
  validate_block H net vt pt se sd s b = Ok tt -> apply_block net s b = Ok (s', m) -> b_txns b = [] -> b_expiring b = [] ->
  consistent (declsB b) = true -> fresh_sf b = true ->
  In t0 (b_v2txns b) -> In i0 (t2_sfi t0) -> p_leaf (f2_parent i0) <> UNASSIGNED ->
  SpentAt (s_leaves s') (Z.to_nat (p_leaf (f2_parent i0))).
Proof. exact consumed_sf_marked_checked. Qed.
Print Assumptions C02_consumed_siafund_leaf_marked_checked.

Theorem C02_resolved_leaf_marked_checked : forall H net vt pt se sd s b s' m t0 rs0,
  validate_block H net vt pt se sd s b = Ok tt -> apply_block net s b = Ok (s', m) -> b_txns b = [] -> b_expiring b = [] ->
  consistent (declsB b) = true -> fresh_v2 b = true ->
  In t0 (b_v2txns b) -> In rs0 (t2_res t0) -> p_leaf (rs_parent rs0) <> UNASSIGNED ->
  SpentAt (s_leaves s') (Z.to_nat (p_leaf (rs_parent rs0))).
Proof. exact resolved_marked_checked. Qed.
Print Assumptions C02_resolved_leaf_marked_checked.
