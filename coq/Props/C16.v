(* C16 — RHP Merkle roots and proofs. The accumulators used by the verifiers (proofAccumulator.insertNode at height 0,
   blake2b.Accumulator.AddLeaf) are the binary increment over a forest of perfect trees covering exactly the inserted
   leaves, and their root is the root of the plainly defined tree [mroot]; proof completeness and soundness inside one
   perfect tree (shared with C05). The range / append / diff / free-sector algorithms are executable in Merkle/Rhp.v and
   tied to the code by correspondence; their completeness and soundness over [mroot] are the theorems below, for every
   list of roots and every range within the bounds each statement names. *)
From Coq Require Import List NArith.
From Sia Require Import Prim.Tok Merkle.Tree Merkle.Forest Merkle.Rhp Merkle.RhpProofs Merkle.RhpRoot Merkle.RgComplete Merkle.RgSound Merkle.RgSound2 Merkle.RgAppend Merkle.RgGap Merkle.RgMulti Merkle.RgDiff2 Merkle.RgDiff3 Merkle.RgRpv1 Merkle.RgRpv2 Merkle.StorageProof Merkle.RgConv1 Merkle.RgConv2.
Import ListNotations.

Theorem C16_accumulator_is_forest : forall H L ds xs, Repr hash (node H) L ds ->
  Repr hash (node H) (L ++ xs) (fold_left (fun a h => insert_node H h 0 a) xs ds).
Proof. exact acc_digits_repr. Qed.
Print Assumptions C16_accumulator_is_forest.

Theorem C16_accumulator_count : forall H L ds, Repr hash (node H) L ds -> length L = value hash 0 ds.
Proof. exact acc_count. Qed.
Print Assumptions C16_accumulator_count.

(* inside one perfect tree: the builder's path verifies, and whatever verifies is the true leaf
   with the true siblings, or a node collision is exhibited *)
Theorem C16_tree_proof_complete : forall (node : hash -> hash -> hash) t p x, perfect hash t -> get hash t p = Some x ->
  proofRoot hash node x (rev p) (rev (sibs hash node t p)) = root hash node t.
Proof. exact (proof_complete hash). Qed.
Print Assumptions C16_tree_proof_complete.

Theorem C16_tree_proof_sound : forall (node : hash -> hash -> hash) t p x ps,
  perfect hash t -> length p = height hash t -> length ps = height hash t ->
  proofRoot hash node x (rev p) (rev ps) = root hash node t ->
  (get hash t p = Some x /\ ps = sibs hash node t p) \/ Tree.NodeCollision hash node.
Proof. exact (proof_sound hash (list_eq_dec N.eq_dec)). Qed.
Print Assumptions C16_tree_proof_sound.

(* the plain definition on small inputs agrees with the accumulator (kernel-computed, identity hash
   replaced by concatenation so that structure is visible): a finite check, not the general theorem *)
Example C16_acc_root_upto_9 : let H := fun b : bytes => b in
  forallb (fun n => let ls := map (fun i => [N.of_nat i]) (seq 0 n) in
     if list_eq_dec (list_eq_dec N.eq_dec) [pa_root H (fold_left (fun a h => insert_node H h 0 a) ls [])] [mroot H ls] then true else false)
    (seq 1 9) = true.
Proof. vm_compute. reflexivity. Qed.

(* the streaming accumulators compute the root of the plainly defined tree (split at the largest power of two strictly
   below the length), for every list of leaves: sectorAccumulator.appendNode / proofAccumulator.insertNode(_, 0) /
   blake2b.Accumulator.AddLeaf followed by root() *)
Theorem C16_streaming_root_is_plain_root : forall H (ls : list hash),
  pa_root H (fold_left (fun a h => insert_node H h 0 a) ls []) = mroot H ls.
Proof. exact streaming_root_is_plain_root. Qed.
Print Assumptions C16_streaming_root_is_plain_root.

(* any accumulator state that represents L (digit i = root of a perfect tree of height i, oldest leaves in the highest
   digit) has the plain root of L as its root *)
Theorem C16_forest_root_is_plain_root : forall H L ds, Repr hash (node H) L ds -> pa_root H ds = mroot H L.
Proof. exact repr_root. Qed.
Print Assumptions C16_forest_root_is_plain_root.

(* MetaRoot (accumulator up to the limit, recursive split above it) is the plain root for every list and limit >= 1 *)
Theorem C16_metaroot_is_plain_root : forall H fuel limit, (1 <= limit)%nat -> forall ls, (length ls <= fuel)%nat ->
  meta_root H fuel limit ls = mroot H ls.
Proof. exact meta_root_is_plain_root. Qed.
Print Assumptions C16_metaroot_is_plain_root.

(* a perfect tree's root is the plain root of its leaves (ties the proofs-in-a-perfect-tree theorems above to mroot) *)
Theorem C16_perfect_root_is_plain_root : forall H t, perfect hash t -> mroot H (leaves hash t) = root hash (node H) t.
Proof. exact perfect_root. Qed.
Print Assumptions C16_perfect_root_is_plain_root.

(* ---- sector-range proofs: completeness ---- *)
(* for every list of at most 2^30 sector roots and every non-empty range, the proof produced by BuildSectorRangeProof
   (greedy aligned subtrees left of the range, then right of it, the last one clipped at the end of the list) is accepted
   by VerifySectorRangeProof -- length check by the popcount formula included -- together with the covered roots, against
   the plainly defined root. (Above 2^30 roots the builder's MaxInt32 bound and the verifier's MaxUint64 bound part ways.) *)
Theorem C16_range_proof_complete : forall H (ls : list hash) start end_,
  let n := N.of_nat (length ls) in
  (0 < n <= 2 ^ 30)%N -> (start < end_)%N -> (end_ <= n)%N ->
  verify_range_proof H (build_range_proof H ls start end_) (slice ls start (end_ - start)) start end_ n (mroot H ls) = true.
Proof. exact range_proof_complete. Qed.
Print Assumptions C16_range_proof_complete.

(* ---- sector-range proofs: soundness ---- *)
(* whatever VerifySectorRangeProof accepts against the plain root of a list of at most 2^30 sector roots, for a non-empty
   range [start, end) within the list and as many covered roots as the range has, is the list's own roots for that range
   together with exactly the proof BuildSectorRangeProof produces -- or two different pairs of hashes with the same node
   hash are in hand. (For fixed n, start, end the verifier evaluates one fixed tree expression over proof hashes and roots;
   the argument runs the verifier once over pairs (submitted hash, honest hash) and tracks equality through every node.) *)
Theorem C16_range_proof_sound : forall H (ls : list hash) start end_ proof roots,
  (0 < N.of_nat (length ls) <= 2 ^ 30)%N -> (start < end_)%N -> (end_ <= N.of_nat (length ls))%N ->
  N.of_nat (length roots) = (end_ - start)%N ->
  verify_range_proof H proof roots start end_ (N.of_nat (length ls)) (mroot H ls) = true ->
  (roots = slice ls start (end_ - start) /\ proof = build_range_proof H ls start end_) \/ RgSound.NodeCollision H.
Proof. exact range_proof_sound. Qed.
Print Assumptions C16_range_proof_sound.

(* the collision disjunct is the same statement as in the perfect-tree theorems above *)
Theorem C16_range_collision_is_node_collision : forall H, RgSound.NodeCollision H <-> Tree.NodeCollision hash (node H).
Proof. exact range_collision_same. Qed.
Print Assumptions C16_range_collision_is_node_collision.

(* ---- append proofs ---- *)
(* rhp/v4 BuildAppendProof returns the digits of the accumulator over the existing roots (one subtree root per set bit of
   the count) and the plain root of existing ++ appended; VerifyAppendSectorsProof accepts them with the plain old root *)
Theorem C16_append_new_root_is_plain_root : forall H (ls app : list hash), snd (build_append_proof H ls app) = mroot H (ls ++ app).
Proof. exact build_append_root. Qed.
Print Assumptions C16_append_new_root_is_plain_root.

Theorem C16_append_sectors_complete : forall H (ls app : list hash),
  verify_append_sectors H (N.of_nat (length ls)) (fst (build_append_proof H ls app)) app (mroot H ls) (snd (build_append_proof H ls app)) = true.
Proof. exact append_sectors_complete. Qed.
Print Assumptions C16_append_sectors_complete.

(* whatever subtree roots are supplied -- wrong, too few (missing ones read as the zero hash) or too many (the rest is
   ignored) -- if VerifyAppendSectorsProof accepts against the plain root of the existing roots with the count held true,
   the new root it accepted is the plain root of existing ++ appended, or a node collision is exhibited: an altered subtree
   root, appended root, old root or new root is therefore rejected *)
Theorem C16_append_sectors_sound : forall H (ls app proof : list hash) (newRoot : hash),
  verify_append_sectors H (N.of_nat (length ls)) proof app (mroot H ls) newRoot = true ->
  newRoot = mroot H (ls ++ app) \/ RgSound.NodeCollision H.
Proof. exact append_sectors_sound. Qed.
Print Assumptions C16_append_sectors_sound.

(* rhp/v2 VerifyAppendProof (all 64 heights scanned, one appended root): the same two statements for counts below 2^64 *)
Theorem C16_append_v2_complete : forall H (ls : list hash) (x : hash), (N.of_nat (length ls) < 2 ^ 64)%N ->
  verify_append H (N.of_nat (length ls)) (somes (fold_left (fun a h => insert_node H h 0 a) ls [])) x (mroot H ls) (mroot H (ls ++ [x])) = true.
Proof. exact append_v2_complete. Qed.
Print Assumptions C16_append_v2_complete.

Theorem C16_append_v2_sound : forall H (ls proof : list hash) (x newRoot : hash), (N.of_nat (length ls) < 2 ^ 64)%N ->
  verify_append H (N.of_nat (length ls)) proof x (mroot H ls) newRoot = true ->
  newRoot = mroot H (ls ++ [x]) \/ RgSound.NodeCollision H.
Proof. exact append_v2_sound. Qed.
Print Assumptions C16_append_v2_sound.

(* ---- diff / free-sector proofs: the old-root half ---- *)
(* the greedy decomposition of a gap [i, j), j < 2^64, takes at most 128 steps: the potential phi drops at every step, so
   the model's fuel (200) never decides anything *)
Theorem C16_gap_potential_decreases : forall i j, (i < j)%N -> (j < 2 ^ 64)%N -> (i + next_subtree_size i j < j)%N ->
  (phi (i + next_subtree_size i j) j < phi i j)%N.
Proof. exact phi_step. Qed.
Print Assumptions C16_gap_potential_decreases.
Theorem C16_gap_potential_bound : forall i j, (j < 2 ^ 64)%N -> (phi i j <= 128)%N.
Proof. exact phi_bound. Qed.
Print Assumptions C16_gap_potential_bound.

(* sectorsChanged yields strictly increasing indices below the count *)
Theorem C16_sectors_changed_increasing : forall acts n, incr 0 (sectors_changed acts n) n.
Proof. exact (sectors_changed_incr (fun b => b)). Qed.
Print Assumptions C16_sectors_changed_increasing.

(* the multi-range verifier of VerifyDiffProof: the builder's gap hashes and the true leaves at any increasing index list
   are accepted against the plain root, for every list of fewer than 2^64 roots *)
Theorem C16_multi_complete : forall H (ls : list hash) idx, (N.of_nat (length ls) < 2 ^ 64)%N -> incr 0 idx (N.of_nat (length ls)) ->
  verify_multi H idx (build_gaps H FUEL ls 0 idx) (leaves_at ls idx) (N.of_nat (length ls)) (mroot H ls) = Some true.
Proof. exact multi_complete. Qed.
Print Assumptions C16_multi_complete.

(* ... and whatever it accepts against the plain root, with the count held true and any number of tree hashes offered, is
   the true leaves at the indices and exactly the builder's gap hashes, or a node collision is exhibited. This rests on the
   verifier marking a range that runs out of tree hashes (repaired defect 7283819); on the unmarked loop the statement is
   false, see the next example *)
Theorem C16_multi_sound : forall H (ls : list hash) idx th lh, (N.of_nat (length ls) < 2 ^ 64)%N -> incr 0 idx (N.of_nat (length ls)) ->
  length lh = length idx ->
  verify_multi H idx th lh (N.of_nat (length ls)) (mroot H ls) = Some true ->
  (lh = leaves_at ls idx /\ th = build_gaps H FUEL ls 0 idx) \/ RgSound.NodeCollision H.
Proof. exact multi_sound. Qed.
Print Assumptions C16_multi_sound.

Example C16_unmarked_loop_refuted : let Hid := fun b : bytes => b in
  let ls := [[1]; [2]; [3]; [4]]%N in
  exists th lh acc, multi_ns Hid FUEL [] th 0 [3%N] lh 4 = Some (acc, []) /\ pa_root Hid acc = mroot Hid ls /\ lh <> leaves_at ls [3%N] /\ length lh = 1%nat.
Proof. exact unmarked_loop_refuted. Qed.

(* VerifyDiffProof / VerifyFreeSectorsProof, first half: BuildDiffProof's hashes pass the old-root verification, and an
   accepted diff proof carries the true roots of the changed sectors and the builder's tree hashes (or a collision) *)
Theorem C16_diff_old_complete : forall H (acts : list action) (ls : list hash), (N.of_nat (length ls) < 2 ^ 64)%N ->
  verify_multi H (sectors_changed acts (N.of_nat (length ls))) (fst (build_diff_proof H acts ls)) (snd (build_diff_proof H acts ls))
    (N.of_nat (length ls)) (mroot H ls) = Some true.
Proof. exact diff_old_complete. Qed.
Print Assumptions C16_diff_old_complete.

Theorem C16_diff_old_sound : forall H (acts : list action) (ls th lh : list hash) (newRoot : hash) (appendRoots : list hash),
  (N.of_nat (length ls) < 2 ^ 64)%N ->
  verify_diff_proof H acts (N.of_nat (length ls)) th lh (mroot H ls) newRoot appendRoots = Some true ->
  (lh = snd (build_diff_proof H acts ls) /\ th = fst (build_diff_proof H acts ls)) \/ RgSound.NodeCollision H.
Proof. exact diff_old_sound. Qed.
Print Assumptions C16_diff_old_sound.

(* second half, reduced to the builder's side: the new root VerifyDiffProof accepts is determined by the actions, the old
   list and the appended roots (it is the root the verifier derives from BuildDiffProof's own output), or a collision is
   exhibited. That this root is the plain root of the list after the actions is C16_diff_sound below. *)
Theorem C16_diff_new_root_determined : forall H (acts : list action) (ls th lh : list hash) (newRoot : hash) (ar : list hash),
  (N.of_nat (length ls) < 2 ^ 64)%N ->
  verify_diff_proof H acts (N.of_nat (length ls)) th lh (mroot H ls) newRoot ar = Some true ->
  diff_new_root H acts ls ar = Some newRoot \/ RgSound.NodeCollision H.
Proof. exact diff_new_determined. Qed.
Print Assumptions C16_diff_new_root_determined.

(* ---- diff / free-sector proofs: the whole verifier ---- *)
(* [apply_acts] is what the actions do to the list of sector roots (append takes the next precomputed root, trim drops
   from the end, swap exchanges two roots; None when an action is out of range). For every action list that is in range,
   BuildDiffProof's output passes VerifyDiffProof with the plain roots of the old list and of the list after the actions *)
Theorem C16_diff_complete : forall H (acts : list action) (ls ar new : list hash),
  apply_acts acts ls ar = Some new -> (N.of_nat (length ls) < 2 ^ 64)%N -> (N.of_nat (length new) < 2 ^ 64)%N ->
  verify_diff_proof H acts (N.of_nat (length ls)) (fst (build_diff_proof H acts ls)) (snd (build_diff_proof H acts ls)) (mroot H ls) (mroot H new) ar = Some true.
Proof. exact diff_complete. Qed.
Print Assumptions C16_diff_complete.

(* ... and whatever VerifyDiffProof accepts against the plain old root (count held true) carries the plain root of the list
   after the actions as new root, the true roots of the changed sectors as leaf hashes and the builder's tree hashes -- or
   a node collision is exhibited. An altered tree hash, leaf hash, old root or new root, and a proof with fewer or more
   tree hashes, are therefore rejected. *)
Theorem C16_diff_sound : forall H (acts : list action) (ls th lh ar new : list hash) (newRoot : hash),
  apply_acts acts ls ar = Some new -> (N.of_nat (length ls) < 2 ^ 64)%N -> (N.of_nat (length new) < 2 ^ 64)%N ->
  verify_diff_proof H acts (N.of_nat (length ls)) th lh (mroot H ls) newRoot ar = Some true ->
  (newRoot = mroot H new /\ lh = snd (build_diff_proof H acts ls) /\ th = fst (build_diff_proof H acts ls)) \/ RgSound.NodeCollision H.
Proof. exact diff_sound. Qed.
Print Assumptions C16_diff_sound.

(* rhp/v4 BuildFreeSectorsProof / VerifyFreeSectorsProof: the same for "swap the i-th freed index with the i-th sector from
   the end, then trim" *)
Theorem C16_free_sectors_complete : forall H (freed : list N) (ls new : list hash),
  let acts := convert_free_actions freed (N.of_nat (length ls)) in
  apply_acts acts ls [] = Some new -> (N.of_nat (length ls) < 2 ^ 64)%N -> (N.of_nat (length new) < 2 ^ 64)%N ->
  verify_diff_proof H acts (N.of_nat (length ls)) (fst (build_diff_proof H acts ls)) (snd (build_diff_proof H acts ls)) (mroot H ls) (mroot H new) [] = Some true.
Proof. exact free_complete. Qed.
Print Assumptions C16_free_sectors_complete.

Theorem C16_free_sectors_sound : forall H (freed : list N) (ls th lh new : list hash) (newRoot : hash),
  let acts := convert_free_actions freed (N.of_nat (length ls)) in
  apply_acts acts ls [] = Some new -> (N.of_nat (length ls) < 2 ^ 64)%N -> (N.of_nat (length new) < 2 ^ 64)%N ->
  verify_diff_proof H acts (N.of_nat (length ls)) th lh (mroot H ls) newRoot [] = Some true ->
  (newRoot = mroot H new /\ lh = snd (build_diff_proof H acts ls) /\ th = fst (build_diff_proof H acts ls)) \/ RgSound.NodeCollision H.
Proof. exact free_sound. Qed.
Print Assumptions C16_free_sectors_sound.

Example C16_apply_acts_example : apply_acts [ASwap 1 3; ATrim 2; AAppend] [[1]; [2]; [3]; [4]; [5]]%N [[9%N]] = Some [[1]; [4]; [3]; [9]]%N.
Proof. exact apply_acts_example. Qed.

(* ---- single leaves of a sector (rhp/v4 BuildSectorProof / VerifyLeafProof, rhp/v2 BuildProof over one sector) ---- *)
(* these call the sector-range builder and verifier with the 65536 leaf hashes of a sector, so they are instances: the
   proof built for leaf i of any sector is accepted with that leaf's hash, and an accepted (leaf hash, proof) pair is the
   true leaf hash with the built proof, or a collision is exhibited *)
Theorem C16_leaf_proof_complete : forall H (ls : list hash) i, N.of_nat (length ls) = 65536%N -> (i < 65536)%N ->
  verify_range_proof H (build_range_proof H ls i (i + 1)) [nth (N.to_nat i) ls zero_hash] i (i + 1) 65536 (mroot H ls) = true.
Proof. exact leaf_proof_complete. Qed.
Print Assumptions C16_leaf_proof_complete.

Theorem C16_leaf_proof_sound : forall H (ls : list hash) i proof leaf, N.of_nat (length ls) = 65536%N -> (i < 65536)%N ->
  verify_range_proof H proof [leaf] i (i + 1) 65536 (mroot H ls) = true ->
  (leaf = nth (N.to_nat i) ls zero_hash /\ proof = build_range_proof H ls i (i + 1)) \/ RgSound.NodeCollision H.
Proof. exact leaf_proof_sound. Qed.
Print Assumptions C16_leaf_proof_sound.

(* ---- rhp/v2 RangeProofVerifier (streaming verification of a leaf range of one sector) ---- *)
(* inserting the root of an aligned block of 2^h hashes is inserting the hashes one by one, whatever the accumulator holds *)
Theorem C16_block_insert_is_leaf_inserts : forall H (h : nat) (l : list hash) ds, length l = Nat.pow 2 h -> lowfree h ds ->
  fold_left (fun a x => insert_node H x 0 a) l ds = insert_node H (mroot H l) h ds.
Proof. exact ins_block. Qed.
Print Assumptions C16_block_insert_is_leaf_inserts.

(* Verify over the subtree roots of the data read = VerifySectorRangeProof over the leaf hashes read, for every proof,
   honest or not, every range and every power-of-two leaf count up to 2^30 (a sector has 2^16) *)
Theorem C16_range_proof_verifier_is_range_verifier : forall H (k : N) (proof lv : list hash) s e root,
  (1 <= k)%N -> (k <= 30)%N -> (s < e)%N -> (e <= 2 ^ k)%N -> N.of_nat (length lv) = (e - s)%N ->
  rpv_verify H proof lv s e (2 ^ k) root = verify_range_proof H proof lv s e (2 ^ k) root.
Proof. exact rpv_is_range. Qed.
Print Assumptions C16_range_proof_verifier_is_range_verifier.

Theorem C16_range_proof_verifier_complete : forall H (k : N) (ls : list hash) s e,
  (1 <= k)%N -> (k <= 30)%N -> N.of_nat (length ls) = (2 ^ k)%N -> (s < e)%N -> (e <= 2 ^ k)%N ->
  rpv_verify H (build_range_proof H ls s e) (slice ls s (e - s)) s e (2 ^ k) (mroot H ls) = true.
Proof. exact rpv_complete. Qed.
Print Assumptions C16_range_proof_verifier_complete.

Theorem C16_range_proof_verifier_sound : forall H (k : N) (ls proof lv : list hash) s e,
  (1 <= k)%N -> (k <= 30)%N -> N.of_nat (length ls) = (2 ^ k)%N -> (s < e)%N -> (e <= 2 ^ k)%N ->
  N.of_nat (length lv) = (e - s)%N -> rpv_verify H proof lv s e (2 ^ k) (mroot H ls) = true ->
  (lv = slice ls s (e - s) /\ proof = build_range_proof H ls s e) \/ RgSound.NodeCollision H.
Proof. exact rpv_sound. Qed.
Print Assumptions C16_range_proof_verifier_sound.

(* ---- ConvertProofOrdering: from the RHP leaf proof to the consensus storage proof ---- *)
(* for a perfect tree of 2^a leaf hashes (a sector: a = 16) and any leaf i, reordering the left-to-right proof built by
   BuildSectorRangeProof / BuildSectorProof for [i, i+1) gives exactly the bottom-up sibling list of the plain tree -- the
   list the consensus storage-proof verifier accepts (C07_storage_proof_v2_complete) *)
Theorem C16_convert_proof_ordering : forall H (a : nat) (L : list hash) i, (1 <= a <= 30)%nat -> length L = Nat.pow 2 a -> (i < 2 ^ N.of_nat a)%N ->
  convert_proof_ordering (build_range_proof H L i (i + 1)) i = sp_prove H (length L) L (N.to_nat i).
Proof. exact convert_is_storage_proof. Qed.
Print Assumptions C16_convert_proof_ordering.
