(* C03 — spends, revisions, renewals need content-binding authorisation. The signature oracle [vt] holds
   the (key, sighash, signature) triples the real Ed25519 accepts; which content a sighash binds is C12. *)
From Coq Require Import ZArith List Bool.
From Sia Require Import Prim.Result Prim.Tok Policy.Model Ledger.Types Ledger.Mid Ledger.Validate Ledger.Apply Ledger.Proofs Ledger.Auth Ledger.V1Sigs.
Import ListNotations.
Open Scope Z_scope.

(* every accepted v2 input reveals a policy hashing to the parent's address, and that policy is satisfied
   at the parent height / median time by the supplied witnesses *)
Theorem C03_v2_input_authorised : forall H vt pt se sd s sighash sp addr e1 e2,
  validate_policy H vt pt se sd s sighash sp addr e1 e2 = Ok tt ->
  address H (sp_policy sp) = addr /\ verify_policy (Z.to_N (s_height s)) (s_median s) (fun k sg => vlookup vt k sighash sg) (plookup pt) se sd
                (sp_policy sp) (sp_sigs sp) (sp_pres sp) = Ok tt.
Proof. exact policy_authorises. Qed.
Print Assumptions C03_v2_input_authorised.

(* every accepted v2 contract is signed by its own renter and host keys *)
Theorem C03_contract_signed_by_its_keys : forall vt s fc, validate_contract vt s fc = Ok tt ->
  vlookup vt (c_renter_key fc) (c_sighash fc) (c_renter_sig fc) = true /\ vlookup vt (c_host_key fc) (c_sighash fc) (c_host_sig fc) = true.
Proof. intros vt s fc Hv. destruct (contract_wellformed vt s fc Hv) as (_ & _ & _ & _ & _ & A & B). auto. Qed.
Print Assumptions C03_contract_signed_by_its_keys.

(* every accepted revision is signed by the keys of the contract as it currently stands (the parent, or an
   earlier revision in the same block), not by the keys the revision itself names *)
Theorem C03_revision_signed_by_current_keys : forall net vt s m e rev, validate_revision net vt s m e rev = Ok tt ->
  exists cur,
    (cur = v2_fc e \/ exists i d, elem_idx m (v2_id e) = Some i /\ nth_error (m_v2fces m) i = Some d /\ d_v2_rev d = Some cur) /\ vlookup vt (c_renter_key cur) (c_sighash rev) (c_renter_sig rev) = true /\ vlookup vt (c_host_key cur) (c_sighash rev) (c_host_sig rev) = true.
Proof.
  intros net vt s m e rev Hv. destruct (revision_invariants net vt s m e rev Hv) as (cur & A & _ & _ & _ & _ & _ & _ & _ & _ & _ & B & C). eauto.
Qed.
Print Assumptions C03_revision_signed_by_current_keys.

(* every attestation of an accepted transaction carries a key and is signed by it *)
Theorem C03_attestations_signed : forall vt t, validate_attestations vt t = Ok tt ->
  Forall (fun a => at_key_empty a = false /\ vlookup vt (at_pubkey a) (at_sighash a) (at_sig a) = true) (t2_att t).
Proof. exact attestations_signed. Qed.
Print Assumptions C03_attestations_signed.

(* an accepted renewal keeps both keys, is signed by both keys of the contract being renewed, conserves its value, and
   the new contract is itself well formed and signed by those keys *)
Theorem C03_renewal_authorised : forall vt s fc rn, validate_renewal vt s fc rn = Ok tt ->
  c_renter_key (rn_new rn) = c_renter_key fc /\ c_host_key (rn_new rn) = c_host_key fc /\
  vlookup vt (c_renter_key fc) (rn_sighash rn) (rn_renter_sig rn) = true /\
  vlookup vt (c_host_key fc) (rn_sighash rn) (rn_host_sig rn) = true /\
  sco_value (rn_final_renter rn) + rn_renter_rollover rn + sco_value (rn_final_host rn) + rn_host_rollover rn
    = sco_value (c_renter fc) + sco_value (c_host fc) /\
  validate_contract vt s (rn_new rn) = Ok tt.
Proof. exact renewal_authorised. Qed.
Print Assumptions C03_renewal_authorised.

(* the Foundation addresses change only in a transaction spending an output of the current management address *)
Theorem C03_foundation_update_authorised : forall s t a, validate_foundation_update s t = Ok tt -> t2_new_foundation t = Some a ->
  exists i, In i (t2_sci t) /\ sco_addr (sce_out (p_val (i2_parent i))) = s_found_mgmt s.
Proof. exact foundation_update_authorised. Qed.
Print Assumptions C03_foundation_update_authorised.

(* ---- v1 transactions ---- *)
(* every accepted v1 siacoin input reveals unlock conditions hashing to its parent's address (the parent being known from
   the block so far or the supplement), after its timelock and the parent's maturity *)
Theorem C03_v1_inputs_reveal_parent_conditions : forall H net vt se sd s m t ts, validate_txn1 H net vt se sd s m t ts = Ok tt ->
  Forall (fun i => i1_timelock i <= child s /\ is_spent m (i1_parent i) = false /\
                   exists p lf, sc_element m ts (i1_parent i) = Some (p, lf) /\ i1_uh i = sco_addr (sce_out p) /\ sce_maturity p <= child s) (t1_sci t).
Proof. exact v1_inputs_gated. Qed.
Print Assumptions C03_v1_inputs_reveal_parent_conditions.

(* every signature of an accepted v1 transaction names a listed input (or revision) and one of its keys, respects its
   timelock, covers existing fields and, for an ed25519 key, verifies under that key; entropy keys never sign; the table
   lists each input, siafund input and revision exactly once *)
Theorem C03_v1_signatures : forall vt se sd s t, validate_signatures vt se sd s t = Ok tt ->
  exists table, Forall (sig_ok vt se sd s table) (t1_sigs t) /\
    map fst table = (map i1_parent (t1_sci t) ++ map f1_parent (t1_sfi t) ++ map r1_parent (t1_rev t))%list.
Proof. exact v1_signatures_ok. Qed.
Print Assumptions C03_v1_signatures.
