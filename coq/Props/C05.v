(* C05 — element proofs survive every history; accumulator roots equal the true Merkle forest.
   [run bs] is the true forest's leaf list after any sequence of blocks (a revert returns to the
   list of the shorter history, so "any interleaving of apply and revert" is "any block list").
   H is an arbitrary hash function; [roots] is the naive forest over all leaves ever added;
   [add_leaves] is the carry chain of addLeaves; [recompute] is updateLeaves' recursion. *)
From Coq Require Import List NArith.
From Sia Require Import Prim.Tok Merkle.Tree Merkle.Update Merkle.UpdateProofs Merkle.Forest Merkle.Acc Merkle.AccProofs Merkle.Growth.
Import ListNotations.

(* after every block list, every leaf's naive proof verifies against the accumulator and
   carries the leaf's current contents (element hash, index, spent flag) *)
Theorem C05_history : forall H bs k l, nth_error (run bs) k = Some l ->
  contains_leaf H (roots H (lhashes H (run bs))) l (naive_proof H (lhashes H (run bs)) (N.of_nat k)) = true.
Proof. intros H bs k l Hn. apply member_complete; [apply (run_wf H)|exact Hn]. Qed.
Print Assumptions C05_history.

(* any proof that verifies for an index is the naive proof of some index of the same tree position -- congruent to the given
   one modulo 2^(proof length) -- whose leaf is the given hash (or a node collision is exhibited) *)
Theorem C05_proofs_are_forest_paths : forall H L x idx proof,
  verifies H (roots H L) x idx proof = true ->
  (exists j, nth_error L (N.to_nat j) = Some x /\
             (j mod 2 ^ N.of_nat (length proof) = idx mod 2 ^ N.of_nat (length proof))%N /\
             proof = naive_proof H L j)
  \/ NodeCollision hash (node H).
Proof. exact verifies_sound. Qed.
Print Assumptions C05_proofs_are_forest_paths.

(* addLeaves' carry chain = roots of the forest built naively over all leaves; leaf count too *)
Theorem C05_add_roots : forall H L xs, add_leaves H (roots H L) xs = roots H (L ++ xs).
Proof. exact add_roots. Qed.
Print Assumptions C05_add_roots.

Theorem C05_leaf_count : forall H L, N.of_nat (length L) = num_leaves (roots H L).
Proof. exact roots_count. Qed.
Print Assumptions C05_leaf_count.

(* updateLeaves' recursion returns the root of the tree with all updates applied *)
Theorem C05_update_leaves_root : forall (node : hash -> hash -> hash) t d ls,
  perfect hash t -> ls <> [] -> Forall (valid_old hash node t) ls -> NoDup (map (pos hash) ls) ->
  fst (recompute hash node (height hash t) d ls) = root hash node (apply_updates hash t ls).
Proof. exact (recompute_root hash). Qed.
Print Assumptions C05_update_leaves_root.

(* updateProof: after rewriting the leaf at q, the proof of p agrees with q's new proof above the
   merge point and is unchanged below it *)
Theorem C05_update_proof : forall (node : hash -> hash -> hash) t p q y,
  perfect hash t -> length p = height hash t -> length q = height hash t -> p <> q ->
  let k := common Bool.eqb p q in
  let t' := set hash t q y in
  firstn k (sibs hash node t' p) = firstn k (sibs hash node t' q) /\
  skipn (S k) (sibs hash node t' p) = skipn (S k) (sibs hash node t p).
Proof. exact (update_proof_spec hash). Qed.
Print Assumptions C05_update_proof.

Example C05_nonvacuous : let H := fun b : bytes => b in
  exists l, nth_error (run [{| b_updated := []; b_added := [([1%N], false); ([2%N], false); ([3%N], true)] |};
                            {| b_updated := [mkLeaf [1%N] 0 true]; b_added := [([4%N], false)] |}]) 2 = Some l.
Proof. eexists. reflexivity. Qed.

(* ---- incremental proof maintenance inside one tree (updateLeaves.recompute, updateProof) ---- *)
(* recompute returns the root of the updated tree and, for every updated leaf, its proof in the updated tree *)
Theorem C05_update_leaves_proofs : forall (node : hash -> hash -> hash) d t ls,
  perfect hash t -> ls <> [] -> Forall (valid_old hash node t) ls -> NoDup (map (pos hash) ls) ->
  let t' := apply_updates hash t ls in
  fst (recompute hash node (height hash t) d ls) = root hash node t' /\
  Forall (fun u => prf hash u = sibs hash node t' (pos hash u)) (snd (recompute hash node (height hash t) d ls)) /\
  Permutation.Permutation (map (key hash) (snd (recompute hash node (height hash t) d ls))) (map (key hash) ls).
Proof. exact (recompute_spec hash). Qed.
Print Assumptions C05_update_leaves_proofs.

(* updateProof: patching the old proof of any other leaf from the closest updated leaf gives that leaf's proof in the
   updated tree *)
Theorem C05_update_proof_correct : forall (node : hash -> hash -> hash) t p ls,
  perfect hash t -> length p = height hash t -> ls <> [] ->
  Forall (fun v => length (pos hash v) = height hash t) ls ->
  let t' := apply_updates hash t ls in
  Forall (fun v => prf hash v = sibs hash node t' (pos hash v) /\ get hash t' (pos hash v) = Some (newh hash v)) ls ->
  update_proof hash node p (sibs hash node t p) ls = sibs hash node t' p.
Proof. exact (update_proof_correct hash). Qed.
Print Assumptions C05_update_proof_correct.

(* both steps: after updateLeaves and updateProof every leaf position of the tree carries its proof in the updated tree *)
Theorem C05_update_flow : forall (node : hash -> hash -> hash) d t ls p,
  perfect hash t -> ls <> [] -> Forall (valid_old hash node t) ls -> NoDup (map (pos hash) ls) -> length p = height hash t ->
  let t' := apply_updates hash t ls in
  let '(rt, ls') := recompute hash node (height hash t) d ls in
  rt = root hash node t' /\ update_proof hash node p (sibs hash node t p) ls' = sibs hash node t' p.
Proof. exact (update_flow hash). Qed.
Print Assumptions C05_update_flow.

(* ---- appending leaves (addLeaves): what treeGrowth stores ---- *)
(* however many leaves are appended, the proof of an old leaf in the grown forest is its old proof followed by a list
   of hashes that depends only on the height of the tree the leaf was in: one extension per old tree *)
Theorem C05_growth_uniform : forall H A L h, exists g, forall k t r,
  locate (forest_of L) k = Some (t, r) -> height hash t = h ->
  naive_proof H (L ++ A) k = (naive_proof H L k ++ g)%list.
Proof. exact growth_uniform. Qed.
Print Assumptions C05_growth_uniform.
