(* C04 — accumulator membership is sound: only the genuine, current leaf at that position is accepted. *)
From Coq Require Import List NArith.
From Sia Require Import Prim.Tok Merkle.Tree Merkle.Forest Merkle.Acc Merkle.AccProofs.
Import ListNotations.

(* If containsLeaf accepts (element hash, leaf index, spent flag, proof) against the accumulator of
   the true forest L, then the leaf stored at that index of L is exactly that leaf — same element
   hash, same index, same spent flag — and the proof is the forest path; otherwise the proof
   exhibits a collision of the node hash or of the leaf hash. *)
Theorem C04_membership_sound : forall H L l proof, wf_leaves L ->
  contains_leaf H (roots H (lhashes H L)) l proof = true ->
  (nth_error L (N.to_nat (eidx l)) = Some l /\ proof = naive_proof H (lhashes H L) (eidx l))
  \/ NodeCollision hash (node H) \/ LeafCollision H.
Proof. exact membership_sound. Qed.
Print Assumptions C04_membership_sound.

(* every history keeps each leaf at its own index, so the hypothesis above holds of every reachable forest *)
Theorem C04_reachable_wf : forall bs, wf_leaves (run bs).
Proof. intros bs. exact (run_wf (fun b => b) bs). Qed.
Print Assumptions C04_reachable_wf.

(* hence: for every history, an accepted leaf is the current leaf at its index (modulo collisions; the converse is
   C04_live_accepted below):
   a spent element presented as unspent, an element with any field (hence element hash) altered,
   another element's position, or an element that was never added are all rejected *)
Theorem C04_live_iff : forall H bs l,
  (exists proof, contains_leaf H (roots H (lhashes H (run bs))) l proof = true) ->
  nth_error (run bs) (N.to_nat (eidx l)) = Some l \/ NodeCollision hash (node H) \/ LeafCollision H.
Proof.
  intros H bs l [proof Hc]. destruct (membership_sound H _ _ _ (run_wf H bs) Hc) as [[A _]|C]; auto.
Qed.
Print Assumptions C04_live_iff.

Theorem C04_live_accepted : forall H bs k l, nth_error (run bs) k = Some l ->
  contains_leaf H (roots H (lhashes H (run bs))) l (naive_proof H (lhashes H (run bs)) (N.of_nat k)) = true.
Proof. intros H bs k l Hn. apply member_complete; [apply (run_wf H)|exact Hn]. Qed.
Print Assumptions C04_live_accepted.

(* a proof of the wrong length is checked against the tree of that height or rejected outright *)
Theorem C04_wrong_height : forall H a l proof,
  nth_error a (length proof) = None \/ nth_error a (length proof) = Some None ->
  contains_leaf H a l proof = false.
Proof. intros H a l proof [E|E]; unfold contains_leaf; rewrite E; reflexivity. Qed.
Print Assumptions C04_wrong_height.
