(* RHP4 renewals / refreshes: exact split, cost identities, acceptance by the consensus renewal rules; v1 tax inversion; histories. *)
From Coq Require Import ZArith List Bool Lia.
From Sia Require Import Prim.Result Prim.Tok Ledger.Types Ledger.Mid Ledger.Validate Ledger.Proofs Rhp4.Model Rhp4.Proofs.
Import ListNotations.
Open Scope Z_scope.

Section Renew.
Variable vt : vtab.
Notation validate_contract := (validate_contract vt).
Notation validate_renewal := (validate_renewal vt).
Notation check_sigs := (check_sigs vt).

Definition renewal_sigs_only (fc : fc2) (rn : renewal) : R unit :=
  do _ <- check_sigs (rn_new rn) (c_renter_key (rn_new rn)) (c_host_key (rn_new rn));
  if negb (vlookup vt (c_renter_key fc) (rn_sighash rn) (rn_renter_sig rn)) then err 134
  else if negb (vlookup vt (c_host_key fc) (rn_sighash rn) (rn_host_sig rn)) then err 135
  else Ok tt.
Definition new_total (rn : renewal) : Z := sco_value (c_renter (rn_new rn)) + sco_value (c_host (rn_new rn)).

Definition renewal_facts (s : lstate) (fc : fc2) (rn : renewal) (fee : Z) (cost : R (Z * Z)) : Prop :=
  sco_value (rn_final_renter rn) + rn_renter_rollover rn = sco_value (c_renter fc) /\
  sco_value (rn_final_host rn) + rn_host_rollover rn = sco_value (c_host fc) /\
  0 <= sco_value (rn_final_renter rn) /\ 0 <= sco_value (rn_final_host rn) /\
  (forall a b c d e f, let rn' := rn_sign rn a b c (fc_sign (rn_new rn) d e f) in
     validate_renewal s fc rn' = renewal_sigs_only fc rn') /\
  Inv (rn_new rn) /\
  rn_renter_rollover rn + rn_host_rollover rn <= new_total rn + new_total rn / 25 /\
  exists rc hc, cost = Ok (rc, hc) /\
    rc + hc + rn_renter_rollover rn + rn_host_rollover rn = new_total rn + new_total rn / 25 + fee.

Lemma validate_renewal_sigs_only s fc rn : Inv fc ->
  c_renter_key (rn_new rn) = c_renter_key fc -> c_host_key (rn_new rn) = c_host_key fc ->
  0 <= rn_renter_rollover rn -> 0 <= rn_host_rollover rn ->
  sco_value (rn_final_renter rn) + rn_renter_rollover rn = sco_value (c_renter fc) ->
  sco_value (rn_final_host rn) + rn_host_rollover rn = sco_value (c_host fc) ->
  0 <= new_total rn -> new_total rn + new_total rn / 25 < C128 ->
  rn_renter_rollover rn + rn_host_rollover rn <= new_total rn + new_total rn / 25 ->
  validate_contract s (rn_new rn) = check_sigs (rn_new rn) (c_renter_key (rn_new rn)) (c_host_key (rn_new rn)) ->
  validate_renewal s fc rn = renewal_sigs_only fc rn.
Proof.
  intros (I1 & I2 & I3 & I4 & I5) Kr Kh R1 R2 S1 S2 T0 TB RB VC.
  assert (D : 0 <= new_total rn / 25) by (apply Z.div_pos; lia).
  unfold Validate.validate_renewal, renewal_sigs_only, new_total in *.
  rewrite VC, v2_tax_is_ok by lia. rewrite Kr, Kh, !beq_refl. cbn [negb]. checked. split_ifs. reflexivity.
Qed.

(* what the three constructors have in common: the new contract is built by [mk_new] from values that make it
   reachable and acceptable to the contract rules; each rollover is taken from the old value of its party, and
   together they are covered by the new values *)
Lemma renewal_facts_intro s fc cap ph exp renter host missed coll ha fr fh rr hr fee cost :
  Inv fc -> 0 <= missed <= coll -> coll <= host -> c_filesize fc <= cap -> child s <= ph -> ph < exp -> 0 < renter ->
  0 <= fr -> 0 <= rr -> fr + rr = sco_value (c_renter fc) -> 0 <= fh -> 0 <= hr -> fh + hr = sco_value (c_host fc) ->
  rr + hr <= renter + host -> 0 <= fee -> renter + host + (renter + host) / 25 + fee < C128 ->
  (exists rc hc, cost = Ok (rc, hc) /\ rc + hc + rr + hr = renter + host + (renter + host) / 25 + fee) ->
  renewal_facts s fc (mk_renewal fc (mk_new fc cap ph exp renter host missed coll ha) fr fh rr hr) fee cost.
Proof.
  intros I J1 J3 Fs Ph Eh A Fr Rr Sr Fh Hr Sh RB F TB C. unfold renewal_facts, new_total. fields.
  assert (D : 0 <= (renter + host) / 25) by (apply Z.div_pos; lia).
  match goal with |- context [Inv ?n] => assert (In : Inv n) by (unfold Inv; fields; lia) end.
  split; [exact Sr|]. split; [exact Sh|]. split; [exact Fr|]. split; [exact Fh|]. split; [|split; [exact In | split; [lia | exact C]]].
  intros a b c d e f. apply validate_renewal_sigs_only; unfold new_total; fields; auto; try lia.
  refine (validate_contract_sigs_only vt s (fc_sign (mk_new _ _ _ _ _ _ _ _ _) d e f) _ _ _ _ _); fields; auto.
Qed.

Lemma renewal_cost_is_ok rn fee : c_collateral (rn_new rn) <= sco_value (c_host (rn_new rn)) ->
  0 <= fee -> new_total rn + new_total rn / 25 + fee < C128 ->
  0 <= rn_renter_rollover rn <= sco_value (c_renter (rn_new rn)) -> 0 <= rn_host_rollover rn <= c_collateral (rn_new rn) ->
  exists rc hc, renewal_cost rn fee = Ok (rc, hc) /\
    rc + hc + rn_renter_rollover rn + rn_host_rollover rn = new_total rn + new_total rn / 25 + fee.
Proof.
  intros J3 F TB Rr Hr. unfold new_total in *.
  assert (D : 0 <= (sco_value (c_renter (rn_new rn)) + sco_value (c_host (rn_new rn))) / 25) by (apply Z.div_pos; lia).
  unfold renewal_cost. rewrite v2_tax_is_ok by lia. checked. do 2 eexists. split; [reflexivity | lia].
Qed.
Lemma refresh_cost_is_ok p rn fee : 0 <= fee -> new_total rn + new_total rn / 25 + fee < C128 ->
  0 <= pr_contract p <= sco_value (c_host (rn_new rn)) ->
  0 <= rn_renter_rollover rn <= sco_value (c_renter (rn_new rn)) + pr_contract p ->
  0 <= rn_host_rollover rn <= sco_value (c_host (rn_new rn)) - pr_contract p ->
  exists rc hc, refresh_cost p rn fee = Ok (rc, hc) /\
    rc + hc + rn_renter_rollover rn + rn_host_rollover rn = new_total rn + new_total rn / 25 + fee.
Proof.
  intros F TB Pc Rr Hr. unfold new_total in *.
  assert (D : 0 <= (sco_value (c_renter (rn_new rn)) + sco_value (c_host (rn_new rn))) / 25) by (apply Z.div_pos; lia).
  unfold refresh_cost. rewrite v2_tax_is_ok by lia. checked. do 2 eexists. split; [reflexivity | lia].
Qed.

(* the rollovers are minima, written with a comparison in the constructors *)
Lemma ltb_min a b : (if a <? b then a else b) = Z.min a b.
Proof. destruct (Z.ltb_spec a b); lia. Qed.

Theorem renew_contract_facts s fc p ha allowance collateral ph rn u fee :
  Inv fc -> prices_nonneg p -> 0 < allowance -> 0 <= collateral -> 0 <= fee ->
  0 <= ph -> child s <= ph -> ph + PROOF_WINDOW < W64 -> 0 <= c_filesize fc ->
  renew_contract fc p ha allowance collateral ph = Ok (rn, u) ->
  new_total rn + new_total rn / 25 + fee < C128 ->
  renewal_facts s fc rn fee (renewal_cost rn fee).
Proof.
  intros I (P1 & P2 & P3 & _) A C F Hp Hh W FS X FUND. pose proof I as (I1 & I2 & I3 & I4 & I5).
  unfold renew_contract in X. rewrite (w64_small (ph + PROOF_WINDOW)) in X by (unfold PROOF_WINDOW in *; lia). inv_ok. subst. rewrite !ltb_min.
  pose proof (w64_bounds (ph + PROOF_WINDOW - pr_tip p)). pose proof (w64_bounds (ph + PROOF_WINDOW - c_exp_height fc)).
  set (risked := pr_collateral p * c_filesize fc * w64 (ph + PROOF_WINDOW - pr_tip p)) in *.
  set (storage := pr_storage p * c_filesize fc * w64 (ph + PROOF_WINDOW - c_exp_height fc)) in *.
  assert (R0 : 0 <= risked /\ 0 <= storage) by (split; repeat apply Z.mul_nonneg_nonneg; lia).
  unfold new_total in FUND. fields. apply renewal_facts_intro; auto; try (unfold PROOF_WINDOW; lia).
  apply renewal_cost_is_ok; unfold new_total; fields; auto; lia.
Qed.

Theorem refresh_partial_facts s fc p ha allowance collateral rn u fee :
  Inv fc -> prices_nonneg p -> 0 < allowance -> 0 <= collateral -> 0 <= fee ->
  child s <= c_proof_height fc -> c_proof_height fc < c_exp_height fc -> c_filesize fc <= c_capacity fc ->
  refresh_partial fc p ha allowance collateral = Ok (rn, u) ->
  new_total rn + new_total rn / 25 + fee < C128 ->
  renewal_facts s fc rn fee (refresh_cost p rn fee).
Proof.
  intros I (P1 & _) A C F Hh W FS X FUND. pose proof I as (I1 & I2 & I3 & I4 & I5).
  unfold refresh_partial, risked_revenue, risked_collateral in X. inv_ok. subst. rewrite !ltb_min.
  unfold new_total in FUND. fields. apply renewal_facts_intro; auto; try lia.
  apply refresh_cost_is_ok; unfold new_total; fields; auto; lia.
Qed.

Theorem refresh_full_facts s fc p ha allowance collateral rn u fee :
  Inv fc -> prices_nonneg p -> 0 < allowance -> 0 <= collateral -> 0 <= fee ->
  child s <= c_proof_height fc -> c_proof_height fc < c_exp_height fc -> c_filesize fc <= c_capacity fc ->
  refresh_full fc p ha allowance collateral = Ok (rn, u) ->
  new_total rn + new_total rn / 25 + fee < C128 ->
  renewal_facts s fc rn fee (refresh_cost p rn fee).
Proof.
  intros I (P1 & _) A C F Hh W FS X FUND. pose proof I as (I1 & I2 & I3 & I4 & I5).
  unfold refresh_full, risked_collateral in X. inv_ok. subst.
  unfold new_total in FUND. fields. apply renewal_facts_intro; auto; try lia.
  apply refresh_cost_is_ok; unfold new_total; fields; auto; lia.
Qed.
End Renew.

Theorem tax_inversion target : 0 <= target ->
  tax_adjusted_payout target - fc_tax (tax_adjusted_payout target) = target.
Proof.
  intros _. unfold tax_adjusted_payout, fc_tax.
  destruct (Z.ltb_spec ((target * 1000 / 961) mod 10000) (target mod 10000)); Z.div_mod_to_equations; lia.
Qed.
Theorem tax_inversion_nonneg target : 10000 <= target -> 0 <= tax_adjusted_payout target.
Proof.
  intros Hn. unfold tax_adjusted_payout.
  destruct (Z.ltb_spec ((target * 1000 / 961) mod 10000) (target mod 10000)); Z.div_mod_to_equations; lia.
Qed.

Inductive rop := OAppend (root : bytes) (n : Z) | OFree (root : bytes) (n : Z) | ORoots (n : Z) | OFund (amount : Z).
Definition rop_ok (o : rop) : Prop :=
  match o with OAppend _ n => 0 <= n | OFree _ n => 0 <= n | ORoots _ => True | OFund a => 0 <= a end.
Definition rstep (p : prices) (fc : fc2) (o : rop) : fc2 :=
  match (match o with
         | OAppend r n => revise_append fc p r n
         | OFree r n => revise_free fc p r n
         | ORoots n => revise_roots fc p n
         | OFund a => revise_fund fc a
         end) with
  | Ok (fc', _) => fc'
  | _ => fc            (* a refused or failed revision leaves the contract as it was *)
  end.

Definition Inv' (fc : fc2) : Prop := Inv fc /\ 0 <= c_revnum fc.

(* fc after at most k revisions of fc0 *)
Definition evolves (k : Z) (fc0 fc : fc2) : Prop :=
  Inv' fc /\ c_revnum fc <= c_revnum fc0 + k /\
  sco_value (c_renter fc) + sco_value (c_host fc) = sco_value (c_renter fc0) + sco_value (c_host fc0) /\
  c_collateral fc = c_collateral fc0 /\ c_missed_host fc <= c_missed_host fc0 /\
  sco_value (c_renter fc) <= sco_value (c_renter fc0).
Lemma evolves_refl k fc : Inv' fc -> 0 <= k -> evolves k fc fc.
Proof. intros I K. split; [exact I | repeat split; lia]. Qed.
Lemma evolves_trans j k a b c : evolves j a b -> evolves k b c -> evolves (j + k) a c.
Proof. intros (_ & Hb) (I & Hc). split; [exact I | repeat split; lia]. Qed.

Lemma pay_evolves fc1 u rev : Inv' fc1 -> usage_nonneg u -> pay_with_contract fc1 u = Ok rev -> evolves 1 fc1 rev.
Proof.
  intros [I R0] U P.
  destruct (pay_exact _ _ _ I U P) as (cost & RC & Sum & Ch & Cd & Ms & Ml & Col & Rn & _ & _ & _ & _ & _ & _ & I').
  destruct U as (U1 & U2 & U3 & U4 & U5 & U6).
  assert (0 <= w64 (c_revnum fc1 + 1) <= c_revnum fc1 + 1).
  { unfold w64, W64. split; [apply Z.mod_pos_bound; lia | apply Z.mod_le; lia]. }
  unfold evolves, Inv'. rewrite Rn. split; [split; [exact I' | lia]|]. repeat split; lia.
Qed.

(* [fc_data] touches none of the fields that [evolves] reads, so a payment from a contract with new sizes, and a new
   root put into its result, are steps from the contract itself *)
Lemma rstep_evolves p fc o : prices_nonneg p -> rop_ok o -> Inv' fc -> evolves 1 fc (rstep p fc o).
Proof.
  intros P O I. unfold rstep. pose proof (evolves_refl 1 fc I ltac:(lia)) as Same.
  destruct o as [root n|root n|n|a]; cbn [rop_ok] in O.
  - destruct (revise_append fc p root n) as [[fc' u]| |] eqn:X; try exact Same.
    destruct (revise_append_ok _ _ _ _ _ _ X) as [Cost Pay].
    refine (pay_evolves (fc_data fc _ _ _) u fc' I _ Pay). eapply (append_cost_nonneg _ _ _ _ P); [| |exact Cost].
    + generalize (w64 (c_capacity fc - c_filesize fc) / SECTOR). intros k. lia.
    + apply w64_bounds.
  - destruct (revise_free fc p root n) as [[fc' u]| |] eqn:X; try exact Same.
    destruct (revise_free_ok _ _ _ _ _ _ X) as (paid & Cost & Pay & ->).
    exact (pay_evolves (fc_data fc _ _ _) u paid I (free_cost_nonneg _ _ _ P O Cost) Pay).
  - destruct (revise_roots fc p n) as [[fc' u]| |] eqn:X; try exact Same.
    destruct (revise_roots_ok _ _ _ _ _ X) as [Cost Pay]. exact (pay_evolves fc u fc' I (roots_cost_nonneg _ _ _ P Cost) Pay).
  - destruct (revise_fund fc a) as [[fc' u]| |] eqn:X; try exact Same.
    destruct (revise_fund_ok _ _ _ _ X) as [-> Pay]. exact (pay_evolves fc _ fc' I (fund_usage_nonneg a O) Pay).
Qed.

Theorem history_invariant p fc0 ops : prices_nonneg p -> Forall rop_ok ops -> Inv' fc0 ->
  evolves (Z.of_nat (length ops)) fc0 (fold_left (rstep p) ops fc0).
Proof.
  intros P O. revert fc0. induction O as [|o ops Ho _ IH]; intros fc0 I; cbn [fold_left length].
  - apply evolves_refl; [exact I | lia].
  - pose proof (rstep_evolves p fc0 o P Ho I) as S. rewrite Nat2Z.inj_succ, <- Z.add_1_l.
    exact (evolves_trans _ _ _ _ _ S (IH _ (proj1 S))).
Qed.
