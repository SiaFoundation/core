(* Proofs about the RHP4 constructors: conservation, exact charging, clean failure, cost identities,
   and acceptance by the consensus rules of the ledger model (Ledger/Validate.v). *)
From Coq Require Import ZArith List Bool Lia.
From Sia Require Import Prim.Result Prim.Tok Ledger.Types Ledger.Mid Ledger.Validate Ledger.Proofs Rhp4.Model.
Import ListNotations.
Open Scope Z_scope.

Lemma cmul64_ok a b c : cmul64 a b = Ok c -> c = a * b /\ a * b < C128.
Proof. unfold cmul64. destruct (C128 <=? a * b) eqn:E; intros Q; inversion Q. lia. Qed.
Lemma cadd_is_ok a b : a + b < C128 -> cadd a b = Ok (a + b).
Proof. unfold cadd. intros. destruct (C128 <=? a + b) eqn:E; [lia | reflexivity]. Qed.
Lemma csub_is_ok a b : b <= a -> csub a b = Ok (a - b).
Proof. unfold csub. intros. destruct (a <? b) eqn:E; [lia | reflexivity]. Qed.

(* splits an equation [... = Ok _] over a chain of binds, checked operations and tests into one fact per step *)
Ltac inv_ok :=
  repeat match goal with
  | Hb : bind ?r _ = Ok _ |- _ =>
      let x := fresh "x" in let E := fresh "E" in apply bind_ok in Hb; destruct Hb as (x & E & Hb)
  | Hc : cadd _ _ = Ok _ |- _ => apply cadd_ok in Hc; destruct Hc
  | Hc : csub _ _ = Ok _ |- _ => apply csub_ok in Hc; destruct Hc
  | Hc : cmul64 _ _ = Ok _ |- _ => apply cmul64_ok in Hc; destruct Hc
  | Hc : Ok _ = Ok _ |- _ => inversion Hc; clear Hc
  | Hc : (if ?c then _ else _) = Ok _ |- _ => destruct c eqn:?; try discriminate Hc
  end.

(* decides the tests of a validation function (other than its signature lookups) from the arithmetic facts at hand *)
Ltac split_ifs :=
  repeat match goal with |- context [if ?c then _ else _] =>
    match c with
    | context [vlookup] => fail 1
    | _ => destruct c eqn:?; try lia
    end end.

(* evaluates the checked additions and subtractions whose bounds follow from the hypotheses *)
Ltac checked := repeat (progress (rewrite ?cadd_is_ok, ?csub_is_ok by lia); cbn [bind]).

(* reads the fields of the contracts and renewals the constructors build *)
Ltac fields :=
  cbn [fc_pay fc_data fc_sign rn_sign mk_new mk_renewal set_value sco_value sco_addr
       c_capacity c_filesize c_root c_proof_height c_exp_height c_renter c_host c_missed_host c_collateral
       c_renter_key c_host_key c_revnum c_renter_sig c_host_sig c_sighash c_tax
       rn_final_renter rn_final_host rn_renter_rollover rn_host_rollover rn_new rn_renter_sig rn_host_sig rn_sighash
       u_rpc u_storage u_egress u_ingress u_fund u_risked] in *.

Lemma w64_small x : 0 <= x < W64 -> w64 x = x.
Proof. apply Z.mod_small. Qed.
Lemma w64_bounds x : 0 <= w64 x < W64.
Proof. apply Z.mod_pos_bound. reflexivity. Qed.

(* what every contract reachable through the constructors satisfies *)
Definition Inv (fc : fc2) : Prop :=
  0 <= c_missed_host fc /\ c_missed_host fc <= c_collateral fc /\ c_collateral fc <= sco_value (c_host fc) /\
  0 <= sco_value (c_renter fc) /\ sco_value (c_renter fc) + sco_value (c_host fc) < C128.
Definition usage_nonneg (u : usage) : Prop :=
  0 <= u_rpc u /\ 0 <= u_storage u /\ 0 <= u_egress u /\ 0 <= u_ingress u /\ 0 <= u_fund u /\ 0 <= u_risked u.

Lemma renter_cost_ok u cost : renter_cost u = Ok cost -> cost = u_rpc u + u_storage u + u_egress u + u_ingress u + u_fund u.
Proof. unfold renter_cost. intros RC. inv_ok. lia. Qed.

Lemma pay_ok fc u fc' : pay_with_contract fc u = Ok fc' -> exists cost, renter_cost u = Ok cost /\
  cost <= sco_value (c_renter fc) /\ u_risked u <= c_missed_host fc /\
  fc' = fc_pay fc (sco_value (c_renter fc) - cost) (sco_value (c_host fc) + cost) (c_missed_host fc - u_risked u) (w64 (c_revnum fc + 1)).
Proof.
  unfold pay_with_contract. intros P. apply bind_ok in P. destruct P as (cost & RC & P). exists cost. inv_ok. subst. auto.
Qed.

Theorem pay_exact fc u fc' : Inv fc -> usage_nonneg u -> pay_with_contract fc u = Ok fc' ->
  exists cost, renter_cost u = Ok cost /\
    sco_value (c_renter fc') + sco_value (c_host fc') = sco_value (c_renter fc) + sco_value (c_host fc) /\
    sco_value (c_renter fc) - sco_value (c_renter fc') = cost /\
    cost = u_rpc u + u_storage u + u_egress u + u_ingress u + u_fund u /\
    c_missed_host fc - c_missed_host fc' = u_risked u /\
    c_missed_host fc' <= c_missed_host fc /\
    c_collateral fc' = c_collateral fc /\
    c_revnum fc' = w64 (c_revnum fc + 1) /\
    c_capacity fc' = c_capacity fc /\ c_filesize fc' = c_filesize fc /\
    c_proof_height fc' = c_proof_height fc /\ c_exp_height fc' = c_exp_height fc /\
    c_renter_key fc' = c_renter_key fc /\ c_host_key fc' = c_host_key fc /\
    Inv fc'.
Proof.
  intros (I1 & I2 & I3 & I4 & I5) (U1 & U2 & U3 & U4 & U5 & U6) P.
  destruct (pay_ok _ _ _ P) as (cost & RC & L1 & L2 & ->). exists cost. split; [exact RC|].
  apply renter_cost_ok in RC. unfold Inv. fields. repeat split; lia.
Qed.

Theorem pay_clean fc u cost : Inv fc -> usage_nonneg u -> renter_cost u = Ok cost ->
  (sco_value (c_renter fc) < cost -> pay_with_contract fc u = err 1) /\
  (cost <= sco_value (c_renter fc) -> c_missed_host fc < u_risked u -> pay_with_contract fc u = err 2) /\
  (cost <= sco_value (c_renter fc) -> u_risked u <= c_missed_host fc -> exists fc', pay_with_contract fc u = Ok fc').
Proof.
  intros (_ & _ & _ & _ & I5) _ RC. unfold pay_with_contract. rewrite RC. cbn [bind].
  apply renter_cost_ok in RC.
  repeat split; intros; split_ifs; try reflexivity.
  checked. eauto.
Qed.

Definition prices_nonneg (p : prices) : Prop :=
  0 <= pr_contract p /\ 0 <= pr_collateral p /\ 0 <= pr_storage p /\ 0 <= pr_ingress p /\ 0 <= pr_egress p /\ 0 <= pr_free p.
Lemma round4k_nonneg n : 0 <= round4k n.
Proof. unfold round4k. pose proof (w64_bounds (n + 4095)). pose proof (Z.mod_le (w64 (n + 4095)) 4096). lia. Qed.
Lemma free_cost_nonneg p n u : prices_nonneg p -> 0 <= n -> free_cost p n = Ok u -> usage_nonneg u.
Proof. intros (_ & _ & _ & _ & _ & P6) N F. unfold free_cost in F. inv_ok. subst. unfold usage_nonneg. fields. repeat split; nia. Qed.
Lemma append_cost_nonneg p n d u : prices_nonneg p -> 0 <= n -> 0 <= d -> append_cost p n d = Ok u -> usage_nonneg u.
Proof.
  intros (_ & P2 & P3 & P4 & _) N D F. unfold append_cost in F. inv_ok. subst. unfold usage_nonneg. fields.
  pose proof (round4k_nonneg (w64 (32 * n))). unfold SECTOR. repeat split; try lia; repeat apply Z.mul_nonneg_nonneg; lia.
Qed.
Lemma roots_cost_nonneg p n u : prices_nonneg p -> roots_cost p n = Ok u -> usage_nonneg u.
Proof.
  intros (_ & _ & _ & _ & P5 & _) F. unfold roots_cost in F. inv_ok. subst. unfold usage_nonneg. fields.
  pose proof (round4k_nonneg (w64 (32 * n))). repeat split; try lia; apply Z.mul_nonneg_nonneg; lia.
Qed.
Lemma fund_usage_nonneg amount : 0 <= amount -> usage_nonneg (fund_usage amount).
Proof. unfold usage_nonneg, fund_usage. fields. lia. Qed.

Lemma fc_data_id rev : fc_data rev (c_capacity rev) (c_filesize rev) (c_root rev) = rev.
Proof. destruct rev; reflexivity. Qed.

(* a revision constructor prices the request and pays the price from the contract; the two that change the data set
   the sizes before the payment, and ReviseForFreeSectors the root after it *)
Lemma revise_roots_ok fc p n rev u : revise_roots fc p n = Ok (rev, u) ->
  roots_cost p n = Ok u /\ pay_with_contract fc u = Ok rev.
Proof. unfold revise_roots. intros X. inv_ok. subst. auto. Qed.
Lemma revise_fund_ok fc amount rev u : revise_fund fc amount = Ok (rev, u) ->
  u = fund_usage amount /\ pay_with_contract fc u = Ok rev.
Proof. unfold revise_fund. intros X. inv_ok. subst. auto. Qed.
Lemma revise_append_ok fc p root appended rev u : revise_append fc p root appended = Ok (rev, u) ->
  let growth := appended - Z.min appended (w64 (c_capacity fc - c_filesize fc) / SECTOR) in
  append_cost p growth (w64 (c_exp_height fc - pr_tip p)) = Ok u /\
  pay_with_contract (fc_data fc (w64 (c_capacity fc + w64 (SECTOR * growth))) (w64 (c_filesize fc + w64 (SECTOR * appended))) root) u = Ok rev.
Proof. unfold revise_append. intros X. inv_ok. subst. auto. Qed.
Lemma revise_free_ok fc p root deletions rev u : revise_free fc p root deletions = Ok (rev, u) ->
  exists paid, free_cost p deletions = Ok u /\
    pay_with_contract (fc_data fc (c_capacity fc) (w64 (c_filesize fc - w64 (SECTOR * deletions))) (c_root fc)) u = Ok paid /\
    rev = fc_data paid (c_capacity paid) (c_filesize paid) root.
Proof. unfold revise_free. intros X. inv_ok. subst. eauto. Qed.

Section Consensus.
Variable net : lnetwork.
Variable vt : vtab.
Notation validate_revision := (validate_revision net vt).
Notation validate_contract := (validate_contract vt).
Notation validate_renewal := (validate_renewal vt).
Notation check_sigs := (check_sigs vt).

(* the consensus-side facts about the contract being revised (it is in the store, unrevised in this block, its
   proof window has not opened) and the physical guards on uint64 fields *)
Definition revisable (s : lstate) (m : mid) (e : fce2) : Prop :=
  elem_idx m (v2_id e) = None /\ child s <= c_proof_height (v2_fc e) /\
  c_proof_height (v2_fc e) < c_exp_height (v2_fc e) /\
  0 <= c_filesize (v2_fc e) /\ c_filesize (v2_fc e) <= c_capacity (v2_fc e) /\ c_capacity (v2_fc e) < W64 /\
  0 <= c_revnum (v2_fc e) /\ c_revnum (v2_fc e) + 1 < W64.

Definition money_result (e : fce2) (rev : fc2) (u : usage) : Prop :=
  sco_value (c_renter rev) + sco_value (c_host rev) = sco_value (c_renter (v2_fc e)) + sco_value (c_host (v2_fc e)) /\
  sco_value (c_renter (v2_fc e)) - sco_value (c_renter rev) = u_rpc u + u_storage u + u_egress u + u_ingress u + u_fund u /\
  c_missed_host (v2_fc e) - c_missed_host rev = u_risked u /\
  c_missed_host rev <= c_missed_host (v2_fc e) /\ c_collateral rev = c_collateral (v2_fc e).

Definition accepted (s : lstate) (m : mid) (e : fce2) (rev : fc2) (u : usage) : Prop :=
  (forall a b c, validate_revision s m e (fc_sign rev a b c) = check_sigs (fc_sign rev a b c) (c_renter_key (v2_fc e)) (c_host_key (v2_fc e))) /\
  money_result e rev u /\ Inv rev.

(* every revision constructor pays from the stored contract with new sizes (and perhaps a new root) that leave
   room for the data: the signed result passes the revision rules up to its signatures *)
Lemma revision_accepted s m e cap fs root0 root u rev : Inv (v2_fc e) -> usage_nonneg u -> revisable s m e ->
  c_capacity (v2_fc e) <= cap -> fs <= cap ->
  pay_with_contract (fc_data (v2_fc e) cap fs root0) u = Ok rev ->
  accepted s m e (fc_data rev (c_capacity rev) (c_filesize rev) root) u /\ c_capacity rev = cap /\ c_filesize rev = fs.
Proof.
  intros (I1 & I2 & I3 & I4 & I5) (U1 & U2 & U3 & U4 & U5 & U6) (RE & R1 & R2 & R3 & R4 & R5 & R6 & R7) C1 C2 P.
  destruct (pay_ok _ _ _ P) as (cost & RC & L1 & L2 & ->). apply renter_cost_ok in RC.
  unfold accepted, money_result, Inv. fields. split; [split|]; [|repeat split; lia..].
  intros sa sb sc. unfold Validate.validate_revision. rewrite RE. cbn [bind]. fields.
  checked. rewrite w64_small by lia. split_ifs. reflexivity.
Qed.

(* ReviseForSectorRoots / ReviseForFundAccounts / ReviseForReplenish *)
Lemma pay_revision_accepted s m e u rev : Inv (v2_fc e) -> usage_nonneg u -> revisable s m e ->
  pay_with_contract (v2_fc e) u = Ok rev ->
  accepted s m e rev u.
Proof.
  intros I U R P. pose proof R as (_ & _ & _ & _ & R4 & _). rewrite <- (fc_data_id (v2_fc e)) in P.
  pose proof (revision_accepted s m e _ _ _ (c_root rev) u rev I U R (Z.le_refl _) R4 P) as [A _].
  rewrite fc_data_id in A. exact A.
Qed.
Theorem revise_roots_accepted s m e p n rev u : Inv (v2_fc e) -> prices_nonneg p -> revisable s m e ->
  revise_roots (v2_fc e) p n = Ok (rev, u) ->
  accepted s m e rev u.
Proof.
  intros I P R X. destruct (revise_roots_ok _ _ _ _ _ X) as [Cost Pay].
  exact (pay_revision_accepted s m e u rev I (roots_cost_nonneg _ _ _ P Cost) R Pay).
Qed.
Theorem revise_fund_accepted s m e amount rev u : Inv (v2_fc e) -> 0 <= amount -> revisable s m e ->
  revise_fund (v2_fc e) amount = Ok (rev, u) ->
  accepted s m e rev u.
Proof.
  intros I A R X. destruct (revise_fund_ok _ _ _ _ X) as [-> Pay].
  exact (pay_revision_accepted s m e _ rev I (fund_usage_nonneg amount A) R Pay).
Qed.

(* ReviseForAppendSectors: appended sectors fit in uint64 (physical guard) *)
Theorem revise_append_accepted s m e p root appended rev u : Inv (v2_fc e) -> prices_nonneg p -> revisable s m e ->
  0 <= appended -> c_capacity (v2_fc e) + SECTOR * appended < W64 ->
  revise_append (v2_fc e) p root appended = Ok (rev, u) ->
  (forall a b c, validate_revision s m e (fc_sign rev a b c) = check_sigs (fc_sign rev a b c) (c_renter_key (v2_fc e)) (c_host_key (v2_fc e))) /\ money_result e rev u /\ Inv rev /\
  c_filesize rev = c_filesize (v2_fc e) + SECTOR * appended /\ c_filesize rev <= c_capacity rev.
Proof.
  intros I P R A G X. pose proof R as (RE & R1 & R2 & R3 & R4 & R5 & R6 & R7).
  destruct (revise_append_ok _ _ _ _ _ _ X) as [Cost Pay]. clear X.
  rewrite (w64_small (c_capacity (v2_fc e) - c_filesize (v2_fc e))) in * by lia.
  set (growth := appended - Z.min appended ((c_capacity (v2_fc e) - c_filesize (v2_fc e)) / SECTOR)) in *.
  (* the spare capacity is used first: the capacity grows by what does not fit, and then holds the new size *)
  assert (G0 : 0 <= growth <= appended /\ c_filesize (v2_fc e) + SECTOR * appended <= c_capacity (v2_fc e) + SECTOR * growth).
  { subst growth. unfold SECTOR.
    pose proof (Z.div_mod (c_capacity (v2_fc e) - c_filesize (v2_fc e)) 4194304 ltac:(lia)).
    pose proof (Z.mod_pos_bound (c_capacity (v2_fc e) - c_filesize (v2_fc e)) 4194304 ltac:(lia)). lia. }
  rewrite (w64_small (SECTOR * growth)), (w64_small (SECTOR * appended)) in Pay by (unfold W64, SECTOR in *; lia).
  rewrite !w64_small in Pay by (unfold W64, SECTOR in *; lia).
  assert (U : usage_nonneg u) by (apply (append_cost_nonneg p _ _ u P) in Cost; [exact Cost | lia | apply w64_bounds]).
  eapply (revision_accepted s m e _ _ _ (c_root rev) u rev I U R) in Pay as ((V & M & I') & Cap & Fs); [|unfold SECTOR in *; lia | lia].
  rewrite fc_data_id in *. rewrite Cap, Fs. tauto.
Qed.

(* ReviseForFreeSectors: the request's validation guarantees the deleted sectors exist *)
Theorem revise_free_accepted s m e p root deletions rev u : Inv (v2_fc e) -> prices_nonneg p -> revisable s m e ->
  0 <= deletions -> SECTOR * deletions <= c_filesize (v2_fc e) ->
  revise_free (v2_fc e) p root deletions = Ok (rev, u) ->
  (forall a b c, validate_revision s m e (fc_sign rev a b c) = check_sigs (fc_sign rev a b c) (c_renter_key (v2_fc e)) (c_host_key (v2_fc e))) /\ money_result e rev u /\ Inv rev /\
  c_filesize rev = c_filesize (v2_fc e) - SECTOR * deletions.
Proof.
  intros I P R D G X. pose proof R as (RE & R1 & R2 & R3 & R4 & R5 & R6 & R7).
  destruct (revise_free_ok _ _ _ _ _ _ X) as (paid & Cost & Pay & ->).
  rewrite (w64_small (SECTOR * deletions)), w64_small in Pay by (unfold W64, SECTOR in *; lia).
  pose proof (free_cost_nonneg _ _ _ P D Cost) as U.
  eapply (revision_accepted s m e _ _ _ root u paid I U R) in Pay as ((V & M & I') & _ & Fs); [|lia | unfold SECTOR in *; lia].
  exact (conj V (conj M (conj I' Fs))).
Qed.

Lemma v2_tax_is_ok fc : sco_value (c_renter fc) + sco_value (c_host fc) < C128 ->
  v2_tax fc = Ok ((sco_value (c_renter fc) + sco_value (c_host fc)) / 25).
Proof. intros L. unfold v2_tax. rewrite cadd_is_ok by exact L. reflexivity. Qed.

Lemma validate_contract_sigs_only s fc : Inv fc -> c_filesize fc <= c_capacity fc -> child s <= c_proof_height fc ->
  c_proof_height fc < c_exp_height fc -> 0 < sco_value (c_renter fc) ->
  validate_contract s fc = check_sigs fc (c_renter_key fc) (c_host_key fc).
Proof. intros (I1 & I2 & I3 & I4 & I5) F C W A. unfold Validate.validate_contract. split_ifs. reflexivity. Qed.

Theorem new_contract_valid s p allowance collateral ph ra ha rk hk fc u fee :
  prices_nonneg p -> 0 < allowance -> 0 <= collateral -> 0 <= ph -> child s <= ph -> ph + PROOF_WINDOW < W64 -> 0 <= fee ->
  allowance + (collateral + pr_contract p) + (allowance + (collateral + pr_contract p)) / 25 + fee < C128 ->
  new_contract p allowance collateral ph ra ha rk hk = Ok (fc, u) ->
  validate_contract s fc = check_sigs fc (c_renter_key fc) (c_host_key fc) /\ Inv fc /\
  exists rc hc tx, contract_cost fc fee = Ok (rc, hc) /\ v2_tax fc = Ok tx /\
    rc + hc = sco_value (c_renter fc) + sco_value (c_host fc) + tx + fee /\ hc = c_collateral fc.
Proof.
  intros (P1 & _) A C Hp Hh W F FUND X. unfold new_contract in X. inv_ok. subst.
  rewrite w64_small by (unfold PROOF_WINDOW in *; lia).
  assert (T0 : 0 <= (allowance + (collateral + pr_contract p)) / 25) by (apply Z.div_pos; lia).
  match goal with |- _ /\ Inv ?c /\ _ => assert (I : Inv c) by (unfold Inv; fields; lia) end.
  split; [apply validate_contract_sigs_only; fields; auto; unfold PROOF_WINDOW; lia | split; [exact I|]].
  unfold contract_cost. rewrite v2_tax_is_ok by (fields; lia). fields. checked.
  do 3 eexists. split; [reflexivity|]. split; [reflexivity|]. lia.
Qed.

End Consensus.
