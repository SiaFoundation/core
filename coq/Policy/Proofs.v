From Coq Require Import List NArith ZArith Bool Lia.
From Sia Require Import Prim.Result Prim.Tok Policy.Model.
Import ListNotations.

Section AddressProofs.
Variable H : bytes -> bytes.

Lemma opaque_idem p : opaque H (opaque H p) = opaque H p.
Proof. destruct p; reflexivity. Qed.

Lemma address_thresh n ps :
  address H (PThresh n ps) = H (addr_prefix ++ 1%N :: enc_policy (PThresh n (map (opaque H) ps))).
Proof. reflexivity. Qed.

Theorem opaque_address n ps ps' :
  Forall2 (fun p p' => p' = p \/ p' = opaque H p) ps ps' ->
  address H (PThresh n ps') = address H (PThresh n ps).
Proof.
  intros F. rewrite !address_thresh.
  assert (E : map (opaque H) ps' = map (opaque H) ps).
  { induction F as [|p p' ps ps' [->| ->] _ IH]; cbn [map]; rewrite ?opaque_idem, ?IH; reflexivity. }
  now rewrite E.
Qed.

Theorem opaque_carries_address p : match opaque H p with POpaque a => a = address H p \/ p = POpaque a | _ => False end.
Proof. destruct p; simpl; auto. Qed.
End AddressProofs.

Section VerifyProofs.
Variable height : N.
Variable median : Z.
Variable sigok preok : bytes -> bytes -> bool.
Variable se sd : bytes.
Notation verify := (verify height median sigok preok se sd).
Notation verify_policy := (verify_policy height median sigok preok se sd).

Theorem above_iff h s : verify (PAbove h) s = Ok s <-> (h <= height)%N.
Proof. simpl. destruct (N.leb_spec h height); split; intros; try reflexivity; try discriminate; try lia. Qed.

Theorem after_iff t s : verify (PAfter t) s = Ok s <-> (t < median)%Z.
Proof. simpl. destruct (Z.ltb_spec t median); split; intros; try reflexivity; try discriminate; try lia. Qed.

Theorem opaque_unusable a sg pr : verify_policy (POpaque a) sg pr = Err EOpaque.
Proof. reflexivity. Qed.

Theorem uc_timelock tl keys req s : (height < tl)%N -> verify (PUC tl keys req) s = Err EHeight.
Proof. intros Hl. simpl. destruct (N.leb_spec tl height); [lia|reflexivity]. Qed.

Theorem no_leftover p sg pr : verify_policy p sg pr = Ok tt ->
  exists s, verify p (mkSt sg pr 0) = Ok s /\ sigs s = [] /\ pres s = [].
Proof.
  unfold Model.verify_policy. destruct (verify p (mkSt sg pr 0)) as [s|e|q]; try discriminate.
  destruct (sigs s) eqn:E1; [|discriminate]. destruct (pres s) eqn:E2; [|discriminate]. eauto.
Qed.

Theorem surplus_signature_rejected p sg pr s x rest :
  verify p (mkSt sg pr 0) = Ok s -> sigs s = x :: rest -> verify_policy p sg pr = Err ESuperSig.
Proof. intros E1 E2. unfold Model.verify_policy. rewrite E1, E2. reflexivity. Qed.

Theorem surplus_preimage_rejected p sg pr s x rest :
  verify p (mkSt sg pr 0) = Ok s -> sigs s = [] -> pres s = x :: rest -> verify_policy p sg pr = Err ESuperPre.
Proof. intros E1 E2 E3. unfold Model.verify_policy. rewrite E1, E2, E3. reflexivity. Qed.

Theorem pk_corrupt k sg rest pr tot : sigok k sg = false -> verify (PPK k) (mkSt (sg :: rest) pr tot) = Err ESig.
Proof. intros E. simpl. now rewrite E. Qed.
Theorem pk_consumes_one k sg rest pr tot : sigok k sg = true ->
  verify (PPK k) (mkSt (sg :: rest) pr tot) = Ok (mkSt rest pr tot).
Proof. intros E. simpl. now rewrite E. Qed.
Theorem hash_corrupt h x rest sg tot : preok h x = false -> verify (PHash h) (mkSt sg (x :: rest) tot) = Err EPre.
Proof. intros E. simpl. now rewrite E. Qed.
Theorem hash_consumes_one h x rest sg tot : preok h x = true ->
  verify (PHash h) (mkSt sg (x :: rest) tot) = Ok (mkSt sg rest tot).
Proof. intros E. simpl. now rewrite E. Qed.

Theorem limit_children n ps s : (255 < N.of_nat (length ps))%N -> verify (PThresh n ps) s = Err EComplex.
Proof.
  intros Hl. simpl. destruct (N.ltb_spec 255 (N.of_nat (length ps))); [|lia]. now rewrite orb_true_r.
Qed.
Theorem limit_total n ps s : (1024 < total s + N.of_nat (length ps))%N -> verify (PThresh n ps) s = Err EComplex.
Proof. intros Hl. simpl. destruct (N.ltb_spec 1024 (total s + N.of_nat (length ps))); [reflexivity|lia]. Qed.

Fixpoint loop (n : N) (ps : list policy) (satisfied : N) (s : st) : res perr st :=
  match ps with
  | [] => if (satisfied =? n)%N then Ok s else Err ENotReached
  | sp :: rest =>
    if is_uc sp then Err EUCSub
    else if is_opaque sp then loop n rest satisfied s
    else if (satisfied =? n)%N then Err EExceeded
    else match verify sp s with
         | Ok s' => loop n rest (satisfied + 1)%N s'
         | Err e => Err e
         | Panic q => Panic q
         end
  end.
Lemma verify_thresh n ps s :
  verify (PThresh n ps) s =
  if (1024 <? total s + N.of_nat (length ps))%N || (255 <? N.of_nat (length ps))%N then Err EComplex
  else loop n ps 0%N (mkSt (sigs s) (pres s) (total s + N.of_nat (length ps))%N).
Proof.
  cbn [Model.verify]. destruct ((1024 <? total s + N.of_nat (length ps))%N || (255 <? N.of_nat (length ps))%N); [reflexivity|].
  generalize (mkSt (sigs s) (pres s) (total s + N.of_nat (length ps))%N) as s0. generalize 0%N as k.
  induction ps as [|sp rest IH]; intros k s0; simpl; [reflexivity|].
  destruct (is_uc sp); [reflexivity|]. destruct (is_opaque sp); [apply IH|].
  destruct (k =? n)%N; [reflexivity|]. destruct (verify sp s0); auto.
Qed.

Definition revealed (ps : list policy) : N := N.of_nat (length (filter (fun p => negb (is_opaque p)) ps)).

Lemma loop_exact n ps k s s' : loop n ps k s = Ok s' -> (k + revealed ps = n)%N /\ Forall (fun p => is_uc p = false) ps.
Proof.
  revert k s. induction ps as [|sp rest IH]; intros k s; simpl.
  - destruct (N.eqb_spec k n); [|discriminate]. intros _. unfold revealed; simpl. split; [lia|constructor].
  - destruct (is_uc sp) eqn:Eu; [discriminate|]. unfold revealed. simpl. destruct (is_opaque sp) eqn:Eo; simpl.
    + intros E. destruct (IH _ _ E) as [A B]. split; [exact A|constructor; auto].
    + destruct (k =? n)%N; [discriminate|]. destruct (verify sp s) as [s1|e|q]; try discriminate.
      intros E. destruct (IH _ _ E) as [A B]. unfold revealed in A. split; [lia|constructor; auto].
Qed.

Theorem threshold_exact n ps s s' : verify (PThresh n ps) s = Ok s' ->
  revealed ps = n /\ Forall (fun p => is_uc p = false) ps /\ (N.of_nat (length ps) <= 255)%N.
Proof.
  rewrite verify_thresh.
  destruct (N.ltb_spec 1024 (total s + N.of_nat (length ps))); [discriminate|].
  destruct (N.ltb_spec 255 (N.of_nat (length ps))); [discriminate|]. simpl.
  intros E. destruct (loop_exact _ _ _ _ _ E) as [A B]. split; [lia|]. split; [exact B|lia].
Qed.

Theorem threshold_child_fatal n sp rest k s e : is_uc sp = false -> is_opaque sp = false -> (k =? n)%N = false ->
  verify sp s = Err e -> loop n (sp :: rest) k s = Err e.
Proof. intros A B C D. simpl. now rewrite A, B, C, D. Qed.
End VerifyProofs.
