(* A declarative meaning of spend policies, written independently of the evaluator, and the proof that
   SpendPolicy.Verify (Policy/Model.v) accepts exactly when it holds. *)
From Coq Require Import List NArith ZArith Bool Lia.
From Sia Require Import Prim.Result Prim.Tok Policy.Model Policy.Proofs.
Import ListNotations.

Section PolicyInd.
Variable P : policy -> Prop.
Hypothesis Habove : forall h, P (PAbove h).
Hypothesis Hafter : forall t, P (PAfter t).
Hypothesis Hpk : forall k, P (PPK k).
Hypothesis Hhash : forall h, P (PHash h).
Hypothesis Hthresh : forall n ps, Forall P ps -> P (PThresh n ps).
Hypothesis Hopaque : forall a, P (POpaque a).
Hypothesis Huc : forall tl keys req, P (PUC tl keys req).
Fixpoint policy_ind' (p : policy) : P p :=
  match p with
  | PAbove h => Habove h | PAfter t => Hafter t | PPK k => Hpk k | PHash h => Hhash h
  | PThresh n ps => Hthresh n ps ((fix go (l : list policy) : Forall P l :=
                                     match l with [] => Forall_nil P | x :: r => Forall_cons x (policy_ind' x) (go r) end) ps)
  | POpaque a => Hopaque a | PUC tl keys req => Huc tl keys req
  end.
End PolicyInd.

Section Sat.
Variable height : N.
Variable median : Z.
Variable sigok preok : bytes -> bytes -> bool.
Variable se sd : bytes.     (* the entropy and ed25519 algorithm specifiers *)
Notation verify := (verify height median sigok preok se sd).
Notation verify_policy := (verify_policy height median sigok preok se sd).
Notation loop := (loop height median sigok preok se sd).

(* legacy unlock conditions: [req] of the listed keys, in list order, each take the next signature; an ed25519 key
   takes it if it verifies and is passed over otherwise, a key of an unknown algorithm takes it unconditionally,
   an entropy key can take nothing *)
Inductive uc_match : list (bytes * bytes) -> N -> list bytes -> list bytes -> Prop :=
| um_done keys sg : uc_match keys 0 sg sg
| um_ed alg k rest req s sg sg' : bytes_eqb alg se = false -> bytes_eqb alg sd = true -> sigok (key32 k) s = true ->
    uc_match rest req sg sg' -> uc_match ((alg, k) :: rest) (req + 1) (s :: sg) sg'
| um_pass alg k rest req s sg sg' : bytes_eqb alg se = false -> bytes_eqb alg sd = true -> sigok (key32 k) s = false ->
    (0 < req)%N -> uc_match rest req (s :: sg) sg' -> uc_match ((alg, k) :: rest) req (s :: sg) sg'
| um_unknown alg k rest req s sg sg' : bytes_eqb alg se = false -> bytes_eqb alg sd = false ->
    uc_match rest req sg sg' -> uc_match ((alg, k) :: rest) (req + 1) (s :: sg) sg'.

Lemma uc_match_used keys req sg sg' : uc_match keys req sg sg' ->
  exists used, sg = used ++ sg' /\ N.of_nat (length used) = req /\ (length used <= length keys)%nat.
Proof.
  induction 1 as [keys sg | ? ? ? ? s ? ? _ _ _ _ (used & -> & L1 & L2) | ? ? ? ? s ? ? _ _ _ _ _ (used & E & L1 & L2)
                 | ? ? ? ? s ? ? _ _ _ (used & -> & L1 & L2)]; cbn [length].
  - exists []. split; [reflexivity | split; [reflexivity | apply Nat.le_0_l]].
  - exists (s :: used). cbn [app length]. split; [reflexivity | lia].
  - exists used. split; [exact E | lia].
  - exists (s :: used). cbn [app length]. split; [reflexivity | lia].
Qed.

Lemma uc_match_bounds keys req sg sg' : uc_match keys req sg sg' ->
  (req <= N.of_nat (length keys))%N /\ (req <= N.of_nat (length sg))%N.
Proof using sigok preok se sd.
  intros M. destruct (uc_match_used _ _ _ _ M) as (used & -> & <- & L). rewrite app_length. lia.
Qed.

(* [uc_match] read as a function of the keys, in the order of [uc_walk]'s tests *)
Lemma um_inv keys req sg sg' : uc_match keys req sg sg' ->
  match keys with
  | [] => True
  | (alg, k) :: rest =>
    req = 0%N /\ sg' = sg \/
    (0 < req)%N /\ bytes_eqb alg se = false /\ exists s sg0, sg = s :: sg0 /\
      if bytes_eqb alg sd then (if sigok (key32 k) s then uc_match rest (req - 1) sg0 sg' else uc_match rest req sg sg')
      else uc_match rest (req - 1) sg0 sg'
  end.
Proof.
  destruct 1 as [keys sg | ? ? ? r s sg0 ? Ese Esd Es M | ? ? ? ? s sg0 ? Ese Esd Es Pos M | ? ? ? r s sg0 ? Ese Esd M].
  - destruct keys as [|[alg k] rest]; auto.
  - right. split; [lia | split; [exact Ese | exists s, sg0; rewrite Esd, Es, N.add_sub; auto]].
  - right. split; [lia | split; [exact Ese | exists s, sg0; rewrite Esd, Es; auto]].
  - right. split; [lia | split; [exact Ese | exists s, sg0; rewrite Esd, N.add_sub; auto]].
Qed.

Lemma walk_on req a b : (req =? 0)%N || (a <? req)%N || (b <? req)%N = false <-> (0 < req <= a /\ req <= b)%N.
Proof. rewrite !orb_false_iff, N.eqb_neq, !N.ltb_ge. lia. Qed.

Lemma uc_walk_iff keys : forall req sg sg', uc_walk sigok se sd keys req sg = Ok (0%N, sg') <-> uc_match keys req sg sg'.
Proof using height sigok preok se sd.
  induction keys as [|[alg k] rest IH]; intros req sg sg'; cbn [uc_walk].
  - split; [intros [= -> ->]; constructor | inversion 1; reflexivity].
  - destruct ((req =? 0)%N || (N.of_nat (length ((alg, k) :: rest)) <? req)%N || (N.of_nat (length sg) <? req)%N) eqn:Eb.
    + split; [intros [= -> ->]; constructor|]. intros M. destruct (uc_match_bounds _ _ _ _ M) as [B1 B2].
      destruct (um_inv _ _ _ _ M) as [[-> ->]|(Pos & _)]; [reflexivity|]. rewrite (proj2 (walk_on _ _ _)) in Eb by lia. discriminate.
    + apply walk_on in Eb. destruct Eb as [[Pos _] Ls]. destruct sg as [|x sg0]; [cbn [length] in Ls; lia|]. clear Ls.
      destruct (bytes_eqb alg se) eqn:Ese.
      { split; [discriminate|]. intros M. destruct (um_inv _ _ _ _ M) as [[-> _]|(_ & F & _)]; [lia | congruence]. }
      destruct (bytes_eqb alg sd) eqn:Esd; [destruct (sigok (key32 k) x) eqn:Es|]; rewrite IH;
        (split; [intros M | intros M; destruct (um_inv _ _ _ _ M) as [[-> _]|(_ & _ & s0 & sg1 & [= <- <-] & C)];
                            [lia | rewrite Esd, ?Es in C; exact C]]).
      * replace req with (req - 1 + 1)%N by lia. apply um_ed; assumption.
      * apply um_pass; assumption.
      * replace req with (req - 1 + 1)%N by lia. apply um_unknown; assumption.
Qed.

Theorem uc_needs_required_sigs tl keys req s s' : verify (PUC tl keys req) s = Ok s' ->
  (tl <= height)%N /\ exists used, sigs s = used ++ sigs s' /\ N.of_nat (length used) = req /\ (length used <= length keys)%nat.
Proof.
  cbn [Model.verify]. destruct (N.leb_spec tl height); [|discriminate].
  destruct (uc_walk sigok se sd keys req (sigs s)) as [[req' sg']|e|q] eqn:E; try discriminate.
  destruct (N.eqb_spec req' 0) as [->|]; [|discriminate]. intros [= <-].
  split; [assumption | apply uc_match_used, uc_walk_iff; exact E].
Qed.

(* [sat p sg pr sg' pr']: p holds, consuming the signatures sg \ sg' and the preimages pr \ pr' from the front, in order *)
Inductive sat : policy -> list bytes -> list bytes -> list bytes -> list bytes -> Prop :=
| sat_above h sg pr : (h <= height)%N -> sat (PAbove h) sg pr sg pr
| sat_after t sg pr : (t < median)%Z -> sat (PAfter t) sg pr sg pr
| sat_pk k s sg pr : sigok k s = true -> sat (PPK k) (s :: sg) pr sg pr
| sat_hash h x sg pr : preok h x = true -> sat (PHash h) sg (x :: pr) sg pr
| sat_thresh n ps sg pr sg' pr' : (length ps <= 255)%nat -> sat_children ps n sg pr sg' pr' -> sat (PThresh n ps) sg pr sg' pr'
| sat_uc tl keys req sg pr sg' : (tl <= height)%N -> uc_match keys req sg sg' -> sat (PUC tl keys req) sg pr sg' pr
(* exactly [n] children are revealed and hold, left to right; every other child is opaque; none is an unlock-conditions policy *)
with sat_children : list policy -> N -> list bytes -> list bytes -> list bytes -> list bytes -> Prop :=
| sc_nil sg pr : sat_children [] 0 sg pr sg pr
| sc_opaque a rest n sg pr sg' pr' : sat_children rest n sg pr sg' pr' -> sat_children (POpaque a :: rest) n sg pr sg' pr'
| sc_reveal p rest n sg pr sg1 pr1 sg2 pr2 : is_uc p = false -> is_opaque p = false ->
    sat p sg pr sg1 pr1 -> sat_children rest n sg1 pr1 sg2 pr2 -> sat_children (p :: rest) (n + 1) sg pr sg2 pr2.

(* the complexity the evaluator charges: every threshold it enters costs its number of children *)
Fixpoint cost (p : policy) : N :=
  match p with
  | PThresh _ ps => N.of_nat (length ps) + fold_right (fun c a => cost c + a)%N 0%N ps
  | _ => 0
  end.
Definition costs (ps : list policy) : N := fold_right (fun c a => cost c + a)%N 0%N ps.
Lemma cost_thresh n ps : cost (PThresh n ps) = (N.of_nat (length ps) + costs ps)%N.
Proof. reflexivity. Qed.
Lemma cost_opaque a : cost (POpaque a) = 0%N. Proof. reflexivity. Qed.

Definition accepts (p : policy) (s s' : st) : Prop :=
  sat p (sigs s) (pres s) (sigs s') (pres s') /\ (total s + cost p <= 1024)%N /\ total s' = (total s + cost p)%N.

Lemma st_eta s : mkSt (sigs s) (pres s) (total s) = s. Proof. destruct s; reflexivity. Qed.
Lemma ok_iff (x s' : st) : @Ok perr st x = Ok s' <-> sigs s' = sigs x /\ pres s' = pres x /\ total s' = total x.
Proof.
  split; [intros [= ->]; auto | intros (A & B & C)]. rewrite <- (st_eta x), <- (st_eta s'). congruence.
Qed.

(* [sat] read as a function of the policy *)
Lemma sat_iff p sg pr sg' pr' : sat p sg pr sg' pr' <->
  match p with
  | PAbove h => (h <= height)%N /\ sg' = sg /\ pr' = pr
  | PAfter t => (t < median)%Z /\ sg' = sg /\ pr' = pr
  | PPK k => match sg with s :: r => sigok k s = true /\ sg' = r /\ pr' = pr | [] => False end
  | PHash h => match pr with x :: r => preok h x = true /\ sg' = sg /\ pr' = r | [] => False end
  | PThresh n ps => (length ps <= 255)%nat /\ sat_children ps n sg pr sg' pr'
  | POpaque _ => False
  | PUC tl keys req => (tl <= height)%N /\ uc_match keys req sg sg' /\ pr' = pr
  end.
Proof.
  split; [intros M; destruct M; auto|].
  destruct p; [| |destruct sg; [contradiction|]|destruct pr; [contradiction|]| |contradiction|].
  1-4: intros (L & -> & ->); constructor; exact L.
  - intros [L M]. constructor; assumption.
  - intros (L & M & ->). constructor; assumption.
Qed.

(* [sat_children] read as a function of the list, in the order in which the loop tests its head *)
Lemma sc_inv ps m sg pr sg2 pr2 : sat_children ps m sg pr sg2 pr2 ->
  match ps with
  | [] => m = 0%N /\ sg2 = sg /\ pr2 = pr
  | p :: rest =>
    if is_opaque p then sat_children rest m sg pr sg2 pr2
    else is_uc p = false /\ exists n sg1 pr1, m = (n + 1)%N /\ sat p sg pr sg1 pr1 /\ sat_children rest n sg1 pr1 sg2 pr2
  end.
Proof. destruct 1 as [| |p rest n sg pr sg1 pr1 sg2 pr2 U O S M]; cbn [is_opaque]; [auto | assumption | rewrite O; eauto 8]. Qed.

Lemma loop_iff n ps : Forall (fun p => forall s s', (total s <= 1024)%N -> verify p s = Ok s' <-> accepts p s s') ps ->
  forall k s s', (total s <= 1024)%N -> (k <= n)%N ->
  loop n ps k s = Ok s' <->
  (sat_children ps (n - k) (sigs s) (pres s) (sigs s') (pres s') /\ (total s + costs ps <= 1024)%N /\ total s' = (total s + costs ps)%N).
Proof.
  induction 1 as [|p ps Hp _ IH]; intros k s s' T K; cbn [Proofs.loop costs fold_right].
  - rewrite N.add_0_r. destruct (N.eqb_spec k n) as [->|NE].
    + rewrite ok_iff, N.sub_diag. split; [intros (A & B & C); rewrite A, B; split; [constructor | auto] | intros (M & _ & Tt)].
      apply sc_inv in M. destruct M as (_ & A & B). auto.
    + split; [discriminate|]. intros (M & _). apply sc_inv in M. lia.
  - fold (costs ps). destruct (is_uc p) eqn:Eu.
    + split; [discriminate|]. intros (M & _). destruct p; try discriminate. apply sc_inv in M. destruct M as [F _]. discriminate.
    + destruct (is_opaque p) eqn:Eo.
      * destruct p; try discriminate. rewrite cost_opaque, N.add_0_l, (IH k s s' T K).
        split; intros (M & B); (split; [|exact B]); [constructor; exact M | exact (sc_inv _ _ _ _ _ _ M)].
      * split.
        -- destruct (N.eqb_spec k n) as [|NE]; [discriminate|].
           destruct (verify p s) as [s1|e|q] eqn:V; try discriminate. apply (Hp s s1 T) in V. destruct V as (S1 & C1 & T1).
           intros L. apply IH in L; [|lia..]. destruct L as (M & B1 & B2). rewrite T1 in *. split; [|split; lia].
           replace (n - k)%N with (n - (k + 1) + 1)%N by lia. eapply sc_reveal; eauto.
        -- intros (M & B1 & B2). apply sc_inv in M. rewrite Eo in M. destruct M as (_ & m & sg1 & pr1 & E & S2 & M).
           destruct (N.eqb_spec k n) as [|NE]; [lia|].
           (* the child holds, so it is accepted, with this state *)
           rewrite (proj2 (Hp s (mkSt sg1 pr1 (total s + cost p)) T)) by (split; [exact S2 | split; [lia | reflexivity]]).
           apply IH; cbn [sigs pres total]; [lia..|]. replace (n - (k + 1))%N with m by lia. split; [exact M | split; lia].
Qed.

Theorem verify_iff p : forall s s', (total s <= 1024)%N -> verify p s = Ok s' <-> accepts p s s'.
Proof.
  (* with [sat] and the evaluator's clause unfolded side by side, both say the same of s', given the test's outcome *)
  induction p as [h|t|k|h|n ps IH|a|tl keys req] using policy_ind'; intros s s' T; unfold accepts; rewrite sat_iff;
    rewrite ?verify_thresh; cbn [cost Model.verify]; rewrite ?N.add_0_r.
  - destruct (N.leb_spec h height); [rewrite ok_iff; tauto | split; [discriminate | lia]].
  - destruct (Z.ltb_spec t median); [rewrite ok_iff; tauto | split; [discriminate | lia]].
  - destruct (sigs s) as [|x sg]; [split; [discriminate | tauto]|].
    destruct (sigok k x) eqn:Ek; [rewrite ok_iff; tauto | split; [discriminate | intros ((K & _) & _); congruence]].
  - destruct (pres s) as [|x pr]; [split; [discriminate | tauto]|].
    destruct (preok h x) eqn:Ek; [rewrite ok_iff; tauto | split; [discriminate | intros ((K & _) & _); congruence]].
  - fold (costs ps).
    destruct (N.ltb_spec 1024 (total s + N.of_nat (length ps))) as [L1|L1]; cbn [orb]; [split; [discriminate | lia]|].
    destruct (N.ltb_spec 255 (N.of_nat (length ps))) as [L2|L2]; [split; [discriminate | lia]|].
    rewrite (loop_iff n ps IH 0%N (mkSt _ _ _) s' L1 (N.le_0_l n)), N.sub_0_r. cbn [sigs pres total]. intuition lia.
  - split; [discriminate | tauto].
  - rewrite <- uc_walk_iff. destruct (N.leb_spec tl height) as [L|L]; [|split; [discriminate | lia]].
    destruct (uc_walk sigok se sd keys req (sigs s)) as [[req' sg']|e|q]; [|split; [discriminate | intros ((_ & W & _) & _); discriminate]..].
    destruct (N.eqb_spec req' 0) as [->|NE]; [rewrite ok_iff | split; [discriminate|]]; cbn [sigs pres total]; intuition congruence.
Qed.

Theorem verify_policy_iff p sg pr : verify_policy p sg pr = Ok tt <-> (sat p sg pr [] [] /\ (cost p <= 1024)%N).
Proof.
  unfold Model.verify_policy. split.
  - destruct (verify p (mkSt sg pr 0)) as [s|e|q] eqn:V; try discriminate.
    destruct (sigs s) eqn:Es; [|discriminate]. destruct (pres s) eqn:Ep; [|discriminate]. intros _.
    apply verify_iff in V; [|cbn; lia]. destruct V as (M & C & _). rewrite Es, Ep in M. cbn in *. split; [exact M | lia].
  - intros (M & C). rewrite (proj2 (verify_iff p (mkSt sg pr 0) (mkSt [] [] (0 + cost p)) ltac:(cbn; lia))); [reflexivity|].
    split; [exact M | split; [cbn; lia | reflexivity]].
Qed.
End Sat.
