(* Derived identifiers: types/types.go and consensus/state.go hash a distinguisher "sia/" name "|" followed by
   arguments. Here is the form of that pre-image (not the list of names and arguments the Go code uses) and why two
   pre-images of this form with different names or arguments differ. H is an arbitrary hash function; a statement
   "IDs differ or a collision is exhibited" needs nothing about BLAKE2b. *)
From Coq Require Import List NArith Bool Lia.
From Sia Require Import Prim.Tok.
Import ListNotations.

Definition BAR : N := 124.            (* '|' *)
Definition dist (name : bytes) : bytes := [115; 105; 97; 47]%N ++ name ++ [BAR].   (* "sia/" name "|" *)
Definition no_bar (l : bytes) : Prop := ~ In BAR l.
Fixpoint no_barb (l : bytes) : bool := match l with [] => true | x :: r => negb (N.eqb x BAR) && no_barb r end.
Lemma no_barb_ok l : no_barb l = true -> no_bar l.
Proof.
  induction l as [|x r IH]; simpl; intros H; [intros []|].
  apply andb_true_iff in H. destruct H as [A B]. intros [E|E]; [subst; rewrite N.eqb_refl in A; discriminate|].
  exact (IH B E).
Qed.

Fixpoint le_bytes (n : nat) (x : N) : bytes :=
  match n with O => [] | S n' => N.modulo x 256 :: le_bytes n' (N.div x 256) end.
Definition u64 (x : N) : bytes := le_bytes 8 x.

Section Ids.
Variable H : bytes -> bytes.
Definition Collision : Prop := exists x y, x <> y /\ H x = H y.

Lemma hash_inj x y : H x = H y -> x = y \/ Collision.
Proof. intros E. destruct (list_eq_dec N.eq_dec x y) as [Eq|Ne]; [left; exact Eq | right; exists x, y; auto]. Qed.

(* hashAll(distinguisher, args...) *)
Definition derive (name : bytes) (args : bytes) : bytes := H (dist name ++ args).

(* the text up to the first '|' determines the distinguisher, the rest the arguments *)
Lemma split_at_bar l1 l2 r1 r2 : no_bar l1 -> no_bar l2 -> l1 ++ BAR :: r1 = l2 ++ BAR :: r2 -> l1 = l2 /\ r1 = r2.
Proof.
  revert l2. induction l1 as [|a l1 IH]; intros [|b l2] N1 N2 E; inversion E; subst.
  - auto.
  - destruct N2. now left.
  - destruct N1. now left.
  - destruct (IH l2) as [-> ->]; auto; intros X; [apply N1 | apply N2]; now right.
Qed.

Theorem derive_injective n1 n2 a1 a2 : no_bar n1 -> no_bar n2 ->
  derive n1 a1 = derive n2 a2 -> (n1 = n2 /\ a1 = a2) \/ Collision.
Proof.
  intros N1 N2 E. destruct (hash_inj _ _ E) as [Eq|C]; [left | right; exact C].
  unfold dist in Eq. simpl in Eq. inversion Eq as [Eq']. clear Eq.
  rewrite <- !app_assoc in Eq'. simpl in Eq'. apply split_at_bar in Eq'; auto.
Qed.

Lemma le_bytes_length n x : length (le_bytes n x) = n.
Proof. revert x; induction n; intros; simpl; auto. Qed.
Lemma le_bytes_inj n x y : (x < 256 ^ N.of_nat n)%N -> (y < 256 ^ N.of_nat n)%N -> le_bytes n x = le_bytes n y -> x = y.
Proof.
  revert x y. induction n as [|n IH]; intros x y Hx Hy E.
  - simpl in *. lia.
  - simpl in E. inversion E as [[E1 E2]].
    rewrite Nat2N.inj_succ, N.pow_succ_r' in Hx, Hy.
    assert (x / 256 = y / 256)%N.
    { apply IH; auto; apply N.div_lt_upper_bound; lia. }
    pose proof (N.div_mod x 256). pose proof (N.div_mod y 256). lia.
Qed.

Lemma app_inj_length {A} (l1 l2 r1 r2 : list A) : length l1 = length l2 -> l1 ++ r1 = l2 ++ r2 -> l1 = l2 /\ r1 = r2.
Proof.
  revert l2. induction l1 as [|a l1 IH]; intros [|b l2] L E; try discriminate L; [now split|].
  injection L as L. injection E as -> E. destruct (IH l2 L E) as [-> ->]. now split.
Qed.

(* an ID followed by an index, as in hashAll("id/siacoinoutput", txid, i); IDs are 32 bytes in Go, and the lemmas ask
   only that the two IDs have the same length *)
Definition id_index_args (i : bytes) (k : N) : bytes := i ++ u64 k.
Lemma id_index_inj i1 i2 k1 k2 : length i1 = length i2 -> (k1 < 2 ^ 64)%N -> (k2 < 2 ^ 64)%N ->
  id_index_args i1 k1 = id_index_args i2 k2 -> i1 = i2 /\ k1 = k2.
Proof.
  intros L K1 K2 E. destruct (app_inj_length _ _ _ _ L E) as [-> B]. split; [reflexivity|].
  exact (le_bytes_inj 8 _ _ K1 K2 B).
Qed.

Theorem derived_ids_distinct n1 n2 i1 i2 k1 k2 : no_bar n1 -> no_bar n2 -> length i1 = length i2 ->
  (k1 < 2 ^ 64)%N -> (k2 < 2 ^ 64)%N ->
  derive n1 (id_index_args i1 k1) = derive n2 (id_index_args i2 k2) ->
  (n1 = n2 /\ i1 = i2 /\ k1 = k2) \/ Collision.
Proof.
  intros N1 N2 L K1 K2 E. destruct (derive_injective _ _ _ _ N1 N2 E) as [[A B]|C]; [|right; exact C].
  left. destruct (id_index_inj _ _ _ _ L K1 K2 B). auto.
Qed.

(* an identifier that hashes an injective encoding binds what the encoding binds *)
Theorem id_binds {A} (enc : A -> bytes) (prefix : bytes) (x y : A) :
  (forall a b, enc a = enc b -> a = b) ->
  H (prefix ++ enc x) = H (prefix ++ enc y) -> x = y \/ Collision.
Proof.
  intros Inj E. destruct (hash_inj _ _ E) as [Eq|C]; [left | right; exact C].
  apply app_inv_head in Eq. auto.
Qed.
Theorem id_ignores {A B} (proj : A -> B) (encB : B -> bytes) (prefix : bytes) (x y : A) :
  proj x = proj y -> H (prefix ++ encB (proj x)) = H (prefix ++ encB (proj y)).
Proof. intros ->. reflexivity. Qed.
End Ids.
