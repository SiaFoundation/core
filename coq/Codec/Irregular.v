(* Hand-modelled, self-delimiting fragments of the wire format: recognisers for V1Currency, V1SiafundOutput and (from
   PolicyWire.v) SpendPolicy, each splitting one encoding off the front of a byte string. The other irregular codecs
   are listed, not modelled here; of consensus.State and ElementAccumulator only the encoded length is defined. *)
From Coq Require Import String.
From Coq Require Import List NArith Lia Bool PeanoNat.
From Sia Require Import Prim.Tok Codec.Parser Codec.Schema Codec.Canonical Codec.PolicyWire.
Import ListNotations.
Open Scope N_scope.

(* V1Currency: u64 length n <= 16, then n big-endian bytes *)
Definition recog_v1cur (b : bytes) : option (bytes * bytes) :=
  match take 8 b with
  | Some (h, r) =>
    let n := le_val h in
    if n <=? 16 then match take (N.to_nat n) r with Some (d, r') => Some (h ++ d, r') | None => None end else None
  | None => None
  end.
Definition valid_v1cur (b : bytes) : Prop :=
  exists d, (length d <= 16)%nat /\ b = le_bytes 8 (N.of_nat (length d)) ++ d.

Lemma recog_v1cur_iff b x r : recog_v1cur b = Some (x, r) <->
  exists h d, length h = 8%nat /\ le_val h = N.of_nat (length d) /\ (length d <= 16)%nat /\ x = h ++ d /\ b = x ++ r.
Proof.
  unfold recog_v1cur. split.
  - destruct (take 8 b) as [[h b1]|] eqn:T; [|discriminate]. cbv zeta.
    destruct (N.leb_spec (le_val h) 16); [|discriminate].
    destruct (take (N.to_nat (le_val h)) b1) as [[d r']|] eqn:T1; [|discriminate]. intros E; inversion E; subst.
    apply take_split in T as [-> L], T1 as [-> L1]. exists h, d. rewrite <- app_assoc. repeat split; auto; lia.
  - intros (h & d & L & E & L16 & -> & ->). rewrite <- app_assoc, (take_app 8) by exact L. cbv zeta. rewrite E.
    destruct (N.leb_spec (N.of_nat (length d)) 16); [|lia]. now rewrite Nat2N.id, take_app.
Qed.
Lemma recog_v1cur_ok : complete recog_v1cur (fun x => x) valid_v1cur.
Proof.
  intros b rest (d & Hl & ->). apply recog_v1cur_iff. exists (le_bytes 8 (N.of_nat (length d))), d.
  rewrite le_bytes_length, (le_val_bytes 8) by (cbn; lia). auto.
Qed.
Lemma recog_v1cur_sound : sound recog_v1cur (fun x => x) valid_v1cur (fun x => x < 256).
Proof.
  intros b x r O E. apply recog_v1cur_iff in E as (h & d & L & E & L16 & -> & ->). split; [reflexivity|].
  apply Forall_app in O as [O _]. apply Forall_app in O as [Oh _]. exists d. split; [exact L16|].
  now rewrite <- E, (proj1 (len8_canon h Oh L)).
Qed.
Lemma recog_v1cur_extend : stable recog_v1cur.
Proof.
  intros b x r q E. apply recog_v1cur_iff in E as (h & d & L & E & L16 & -> & ->). apply recog_v1cur_iff.
  exists h, d. now rewrite <- app_assoc.
Qed.

(* V1SiafundOutput: a V1Currency whose value fits in 64 bits, the address, and a (discarded) V1Currency *)
Definition all_zero (l : bytes) : bool := forallb (fun x => x =? 0) l.
Definition v1cur_fits64 (c : bytes) : bool :=      (* c = 8-byte prefix ++ data *)
  let d := skipn 8 c in all_zero (firstn (length d - 8) d).
Definition recog_v1sfo (b : bytes) : option (bytes * bytes) :=
  match recog_v1cur b with
  | Some (c, r) =>
    if v1cur_fits64 c then
      match take 32 r with
      | Some (a, r') => match recog_v1cur r' with Some (c2, r'') => Some (c ++ a ++ c2, r'') | None => None end
      | None => None
      end
    else None
  | None => None
  end.
Definition valid_v1sfo (b : bytes) : Prop :=
  exists c a c2, valid_v1cur c /\ v1cur_fits64 c = true /\ length a = 32%nat /\ valid_v1cur c2 /\ b = c ++ a ++ c2.
Lemma recog_v1sfo_ok : complete recog_v1sfo (fun x => x) valid_v1sfo.
Proof.
  intros b rest (c & a & c2 & Hc & Hf & Ha & Hc2 & ->). unfold recog_v1sfo.
  rewrite <- !app_assoc. rewrite (recog_v1cur_ok c _ Hc). rewrite Hf.
  rewrite take_app by exact Ha. rewrite (recog_v1cur_ok c2 _ Hc2). reflexivity.
Qed.

Lemma recog_v1sfo_sound : sound recog_v1sfo (fun x => x) valid_v1sfo (fun x => x < 256).
Proof.
  intros b x r O E. unfold recog_v1sfo in E.
  destruct (recog_v1cur b) as [[c r1]|] eqn:R1; [|discriminate].
  destruct (v1cur_fits64 c) eqn:F; [|discriminate].
  destruct (take 32 r1) as [[a r2]|] eqn:T; [|discriminate].
  destruct (recog_v1cur r2) as [[c2 r3]|] eqn:R2; [|discriminate]. inversion E; subst.
  destruct (recog_v1cur_sound _ _ _ O R1) as [-> V1]. apply Forall_app in O as [_ O1].
  apply take_split in T as [-> La]. apply Forall_app in O1 as [_ O2].
  destruct (recog_v1cur_sound _ _ _ O2 R2) as [-> V2].
  split; [now rewrite <- !app_assoc|]. now exists c, a, c2.
Qed.
Lemma recog_v1sfo_extend : stable recog_v1sfo.
Proof.
  intros b x r q E. unfold recog_v1sfo in E |- *.
  destruct (recog_v1cur b) as [[c r1]|] eqn:R1; [|discriminate]. rewrite (recog_v1cur_extend _ _ _ q R1).
  destruct (v1cur_fits64 c); [|discriminate].
  destruct (take 32 r1) as [[a r2]|] eqn:T; [|discriminate]. rewrite (take_extend _ _ _ _ q T).
  destruct (recog_v1cur r2) as [[c2 r3]|] eqn:R2; [|discriminate]. inversion E; subst.
  now rewrite (recog_v1cur_extend _ _ _ q R2).
Qed.

Open Scope string_scope.
Definition recog (name : string) (b : bytes) : option (bytes * bytes) :=
  if name =? "types.V1Currency" then recog_v1cur b
  else if name =? "types.V1SiafundOutput" then recog_v1sfo b
  else if name =? "types.SpendPolicy" then recog_policy b
  else None.
Definition rvalid (name : string) (b : bytes) : Prop :=
  (name = "types.V1Currency" /\ valid_v1cur b) \/ (name = "types.V1SiafundOutput" /\ valid_v1sfo b) \/
  (name = "types.SpendPolicy" /\ valid_policy b).

Lemma recog_ok name : complete (recog name) (fun x => x) (rvalid name).
Proof.
  intros b rest [[-> H]|[[-> H]|[-> H]]]; unfold recog; cbn [String.eqb Ascii.eqb Bool.eqb].
  - now apply recog_v1cur_ok.
  - now apply recog_v1sfo_ok.
  - now apply recog_policy_ok.
Qed.
Lemma rvalid_nonempty name b : rvalid name b -> (1 <= length b)%nat.
Proof.
  intros [[_ (d & _ & ->)]|[[_ (c & a & c2 & (d & _ & ->) & _ & _ & _ & ->)]|[_ V]]].
  - rewrite app_length, le_bytes_length. lia.
  - rewrite !app_length, le_bytes_length. lia.
  - now apply valid_policy_nonempty.
Qed.

Lemma recog_sound name : sound (recog name) (fun x => x) (rvalid name) (fun x => (x < 256)%N).
Proof.
  intros b x r O E. unfold recog in E. destruct (String.eqb_spec name "types.V1Currency") as [->|_].
  - destruct (recog_v1cur_sound _ _ _ O E) as [-> V]. split; [reflexivity | left; auto].
  - destruct (String.eqb_spec name "types.V1SiafundOutput") as [->|_].
    + destruct (recog_v1sfo_sound _ _ _ O E) as [-> V]. split; [reflexivity | right; left; auto].
    + destruct (String.eqb_spec name "types.SpendPolicy") as [->|_]; [|discriminate].
      destruct (recog_policy_sound _ _ _ O E) as [-> V]. split; [reflexivity | right; right; auto].
Qed.

Lemma recog_extend name : stable (recog name).
Proof.
  unfold recog. destruct (name =? "types.V1Currency"); [apply recog_v1cur_extend|].
  destruct (name =? "types.V1SiafundOutput"); [apply recog_v1sfo_extend|].
  destruct (name =? "types.SpendPolicy"); [apply recog_policy_extend | discriminate].
Qed.

(* a hand-written list of types with irregular codecs; nothing compares it with the list of methods the translator could
   not read: that list is checked in Oblig.opaque_pinned, against Golden.golden_opaque *)
Definition irregular_types : list string := [
  "types.DecoderFunc"; "types.EncoderFunc"; "types.V1Currency"; "types.V1SiafundOutput"; "types.SpendPolicy";
  "types.V2FileContractResolution"; "types.V2Transaction"; "types.V2TransactionSemantics"; "types.V2TransactionsMultiproof";
  "types.V2BlockData_placeholder"
].

(* consensus.State and ElementAccumulator have irregular layouts; their encoded lengths as executable definitions.
   State: index, then the min(childHeight, 11) timestamps actually used (childHeight wraps to 0 for the pre-genesis
   state at height 2^64-1), the fixed proof-of-work / tax / foundation fields, the accumulator, the attestation count.
   ElementAccumulator: the leaf count and one root per set bit of it. *)
Definition state_timestamps (height : N) : N := N.min ((height + 1) mod 2 ^ 64) 11.
Fixpoint popcount_fuel (fuel : nat) (n : N) : N :=
  match fuel with O => 0 | S f => (n mod 2) + popcount_fuel f (n / 2) end.
Definition popcount64 (n : N) : N := popcount_fuel 64 n.
Definition accumulator_len (num_leaves : N) : N := 8 + 32 * popcount64 num_leaves.
Definition state_len (height num_leaves : N) : N :=
  (8 + 32) + 8 * state_timestamps height + 32 + 32 + 16 + 8 + 32 + 32 + 32 + 32 + 32 + 32 + accumulator_len num_leaves + 8.
