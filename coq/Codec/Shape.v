(* Shapes as emitted by the translator, and their compilation to schemas. *)
From Coq Require Import String Ascii.
From Coq Require Import List NArith Bool PeanoNat.
From Sia Require Import Prim.Tok Codec.Schema.
Import ListNotations.

Inductive shape :=
| HU8 | HU64 | HBool | HTime | HBytes | HFixed (n : nat)
| HSlice (s : shape) | HPtr (s : shape) | HLoop (s : shape) | HSeq (l : list shape)
| HNamed (name : string) | HOpaque (why : string).

(* nested sequences are read as one flat sequence, since they write the same bytes; that is the reading [to_schema]
   chooses, not a proved fact *)
Definition reseq (l : list shape) : shape := match l with [x] => x | _ => HSeq l end.
Fixpoint flat (h : shape) : list shape :=
  match h with
  | HSeq l => (fix go (l : list shape) : list shape := match l with [] => [] | x :: r => flat x ++ go r end) l
  | HSlice s => [HSlice (reseq (flat s))]
  | HPtr s => [HPtr (reseq (flat s))]
  | HLoop s => [HLoop (reseq (flat s))]
  | x => [x]
  end.
Definition norm (h : shape) : shape := reseq (flat h).

Fixpoint to_schema_raw (h : shape) : option schema :=
  match h with
  | HU8 => Some SU8 | HU64 => Some SU64 | HBool => Some SBool | HTime => Some SU64 | HBytes => Some SBytes
  | HFixed n => Some (SFixed n)
  | HSlice s => option_map SSlice (to_schema_raw s)
  | HPtr s => option_map SPtr (to_schema_raw s)
  | HLoop _ => None
  | HSeq l => (fix go (l : list shape) : option schema :=
                 match l with
                 | [] => Some SUnit
                 | [x] => to_schema_raw x
                 | x :: r => match to_schema_raw x, go r with Some a, Some b => Some (SPair a b) | _, _ => None end
                 end) l
  | HNamed n => Some (SRaw n)
  | HOpaque _ => None
  end.
Definition to_schema (h : shape) : option schema := to_schema_raw (norm h).

Fixpoint schema_eqb (a b : schema) : bool :=
  match a, b with
  | SU8, SU8 | SU64, SU64 | SBool, SBool | SBytes, SBytes | SUnit, SUnit => true
  | SFixed n, SFixed m => Nat.eqb n m
  | SSlice x, SSlice y | SPtr x, SPtr y => schema_eqb x y
  | SPair x1 x2, SPair y1 y2 => schema_eqb x1 y1 && schema_eqb x2 y2
  | SRaw n, SRaw m => String.eqb n m
  | _, _ => false
  end.
Lemma schema_eqb_eq a b : schema_eqb a b = true -> a = b.
Proof.
  revert b. induction a; intros b0 H; destruct b0; simpl in H; try discriminate; try reflexivity.
  - apply Nat.eqb_eq in H. now subst.
  - f_equal; auto.
  - f_equal; auto.
  - apply andb_true_iff in H. destruct H. f_equal; auto.
  - apply String.eqb_eq in H. now subst.
Qed.

Definition opt_schema_eqb (a b : option schema) : bool :=
  match a, b with Some x, Some y => schema_eqb x y | _, _ => false end.

(* substring test, for the field-coverage obligation *)
Fixpoint prefixb (p s : string) : bool :=
  match p, s with
  | EmptyString, _ => true
  | String a p', String b s' => Ascii.eqb a b && prefixb p' s'
  | _, _ => false
  end.
Fixpoint substringb (p s : string) : bool :=
  prefixb p s || match s with EmptyString => false | String _ s' => substringb p s' end.
