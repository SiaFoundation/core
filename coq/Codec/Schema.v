(* Generic wire codec over schemas, mirroring types.Encoder/Decoder: little-endian u64, strict
   bool, fixed arrays, length-prefixed bytes and slices with the "length prefix vs bytes remaining"
   check before any element is read, pointers as bool + value, sequences, and self-delimiting
   hand-modelled fragments (SRaw) recognised by a supplied parser. *)
From Coq Require Import String.
From Coq Require Import List NArith Lia Bool PeanoNat.
From Sia Require Import Prim.Tok Codec.Parser.
Import ListNotations.
Open Scope N_scope.

Fixpoint le_bytes (k : nat) (n : N) : bytes :=
  match k with O => [] | S k => (n mod 256) :: le_bytes k (n / 256) end.
Fixpoint le_val (bs : bytes) : N :=
  match bs with [] => 0 | b :: t => b + 256 * le_val t end.
Lemma le_bytes_length k n : length (le_bytes k n) = k.
Proof. revert n; induction k; simpl; auto. Qed.
Lemma le_val_bytes k n : n < 256 ^ N.of_nat k -> le_val (le_bytes k n) = n.
Proof.
  revert n. induction k as [|k IH]; intros n H.
  - simpl in *. lia.
  - cbn [le_bytes le_val]. rewrite IH.
    + pose proof (N.div_mod n 256). lia.
    + rewrite Nat2N.inj_succ, N.pow_succ_r' in H. apply N.div_lt_upper_bound; lia.
Qed.

Inductive schema :=
| SU8 | SU64 | SBool | SFixed (n : nat) | SBytes
| SSlice (s : schema) | SPtr (s : schema)
| SUnit | SPair (a b : schema)
| SRaw (name : string).

Inductive val :=
| VN (n : N) | VB (b : bool) | VBytes (l : bytes)
| VList (l : list val) | VOpt (o : option val) | VUnit | VPair (a b : val)
| VRaw (b : bytes).

Lemma all_Forall {A} (P : A -> Prop) l :
  (fix all (l : list A) := match l with [] => True | x :: t => P x /\ all t end) l <-> Forall P l.
Proof. induction l as [|x l IH]; [now split|]. rewrite Forall_cons_iff, IH. reflexivity. Qed.

Section Codec.
(* hand-modelled fragments: [recog name b] splits one canonical encoding off the front of b *)
Variable recog : string -> bytes -> option (bytes * bytes).
Variable rvalid : string -> bytes -> Prop.
Hypothesis recog_ok : forall name b rest, rvalid name b -> recog name (b ++ rest) = Some (b, rest).
Hypothesis rvalid_nonempty : forall name b, rvalid name b -> (1 <= length b)%nat.

Fixpoint wt (s : schema) (v : val) {struct s} : Prop :=
  match s, v with
  | SU8, VN n => n < 256
  | SU64, VN n => n < 2^64
  | SBool, VB _ => True
  | SFixed k, VBytes l => length l = k
  | SBytes, VBytes l => N.of_nat (length l) < 2^64
  | SSlice s, VList l => N.of_nat (length l) < 2^64 /\ (fix all (l : list val) := match l with [] => True | x :: t => wt s x /\ all t end) l
  | SPtr s, VOpt None => True
  | SPtr s, VOpt (Some x) => wt s x
  | SUnit, VUnit => True
  | SPair a b, VPair x y => wt a x /\ wt b y
  | SRaw name, VRaw b => rvalid name b
  | _, _ => False
  end.

Fixpoint enc (s : schema) (v : val) {struct s} : bytes :=
  match s, v with
  | SU8, VN n => [n]
  | SU64, VN n => le_bytes 8 n
  | SBool, VB b => [if b then 1 else 0]
  | SFixed k, VBytes l => l
  | SBytes, VBytes l => le_bytes 8 (N.of_nat (length l)) ++ l
  | SSlice s, VList l => le_bytes 8 (N.of_nat (length l)) ++ flat_map (enc s) l
  | SPtr s, VOpt None => [0]
  | SPtr s, VOpt (Some x) => 1 :: enc s x
  | SPair a b, VPair x y => enc a x ++ enc b y
  | SRaw _, VRaw b => b
  | _, _ => []
  end.

Fixpoint minsize (s : schema) : nat :=
  match s with
  | SU8 => 1 | SU64 => 8 | SBool => 1 | SFixed k => k | SBytes => 8 | SSlice _ => 8 | SPtr _ => 1
  | SUnit => 0 | SPair a b => minsize a + minsize b | SRaw _ => 1
  end.

Definition take (k : nat) (b : bytes) : option (bytes * bytes) :=
  if Nat.leb k (length b) then Some (firstn k b, skipn k b) else None.

Fixpoint dec (s : schema) (b : bytes) {struct s} : option (val * bytes) :=
  match s with
  | SU8 => match b with x :: r => Some (VN x, r) | [] => None end
  | SU64 => match take 8 b with Some (h, r) => Some (VN (le_val h), r) | None => None end
  | SBool => match b with 0 :: r => Some (VB false, r) | 1 :: r => Some (VB true, r) | _ => None end
  | SFixed k => match take k b with Some (h, r) => Some (VBytes h, r) | None => None end
  | SBytes => match take 8 b with
              | Some (h, r) => let n := le_val h in
                 if n <=? N.of_nat (length r) then
                   match take (N.to_nat n) r with Some (d, r') => Some (VBytes d, r') | None => None end
                 else None
              | None => None end
  | SSlice s => match take 8 b with
              | Some (h, r) => let n := le_val h in
                 if n <=? N.of_nat (length r) then
                   match (fix loop (k : nat) (r : bytes) : option (list val * bytes) :=
                      match k with
                      | O => Some ([], r)
                      | S k => match dec s r with
                               | Some (x, r') => match loop k r' with Some (xs, r'') => Some (x :: xs, r'') | None => None end
                               | None => None end
                      end) (N.to_nat n) r with Some (xs, r) => Some (VList xs, r) | None => None end
                 else None
              | None => None end
  | SPtr s => match b with
              | 0 :: r => Some (VOpt None, r)
              | 1 :: r => match dec s r with Some (x, r') => Some (VOpt (Some x), r') | None => None end
              | _ => None end
  | SUnit => Some (VUnit, b)
  | SPair a c => match dec a b with
                 | Some (x, r) => match dec c r with Some (y, r') => Some (VPair x y, r') | None => None end
                 | None => None end
  | SRaw name => match recog name b with Some (x, r) => Some (VRaw x, r) | None => None end
  end.

Lemma take_app k a r : length a = k -> take k (a ++ r) = Some (a, r).
Proof.
  intros <-. unfold take. rewrite app_length.
  destruct (Nat.leb_spec (length a) (length a + length r)); [|lia].
  now rewrite firstn_app, Nat.sub_diag, firstn_all, skipn_app, Nat.sub_diag, skipn_all, app_nil_r.
Qed.
Lemma take_split k b h r : take k b = Some (h, r) -> b = h ++ r /\ length h = k.
Proof.
  unfold take. destruct (Nat.leb_spec k (length b)); [|discriminate]. intros E; inversion E; subst.
  split; [symmetry; apply firstn_skipn | apply firstn_length_le; assumption].
Qed.
Lemma take_extend k : stable (take k).
Proof. intros b h r q T. apply take_split in T as [-> L]. rewrite <- app_assoc. now apply take_app. Qed.

Lemma wt_slice_iff s l : wt (SSlice s) (VList l) <-> N.of_nat (length l) < 2^64 /\ Forall (wt s) l.
Proof. cbn [wt]. now rewrite all_Forall. Qed.

Lemma dec_bytes_iff b v r : dec SBytes b = Some (v, r) <->
  exists h d, length h = 8%nat /\ le_val h = N.of_nat (length d) /\ b = h ++ d ++ r /\ v = VBytes d.
Proof.
  cbn [dec]. split.
  - destruct (take 8 b) as [[h b1]|] eqn:T; [|discriminate]. cbv zeta.
    destruct (le_val h <=? N.of_nat (length b1)); [|discriminate].
    destruct (take (N.to_nat (le_val h)) b1) as [[d r']|] eqn:T1; [|discriminate]. intros E; inversion E; subst.
    apply take_split in T as [-> L], T1 as [-> L1]. exists h, d. rewrite L1, N2Nat.id. auto.
  - intros (h & d & L & E & -> & ->). rewrite (take_app 8) by exact L. cbv zeta. rewrite E, app_length.
    destruct (N.leb_spec (N.of_nat (length d)) (N.of_nat (length d + length r))); [|lia].
    now rewrite Nat2N.id, take_app.
Qed.

(* the element loop of the slice decoder is [rep] *)
Lemma dec_slice_eq s b : dec (SSlice s) b =
  match take 8 b with
  | Some (h, b1) =>
    if le_val h <=? N.of_nat (length b1)
    then match rep (dec s) (N.to_nat (le_val h)) b1 with Some (l, r) => Some (VList l, r) | None => None end
    else None
  | None => None
  end.
Proof. reflexivity. Qed.

Lemma dec_slice_iff s b v r : dec (SSlice s) b = Some (v, r) <->
  exists h b1 l, length h = 8%nat /\ le_val h <= N.of_nat (length b1) /\
                 rep (dec s) (N.to_nat (le_val h)) b1 = Some (l, r) /\ b = h ++ b1 /\ v = VList l.
Proof.
  rewrite dec_slice_eq. split.
  - destruct (take 8 b) as [[h b1]|] eqn:T; [|discriminate].
    destruct (N.leb_spec (le_val h) (N.of_nat (length b1))) as [LE|]; [|discriminate].
    destruct (rep _ _ b1) as [[l r']|] eqn:R; [|discriminate]. intros E; inversion E; subst.
    apply take_split in T as [-> L]. now exists h, b1, l.
  - intros (h & b1 & l & L & LE & R & -> & ->). rewrite (take_app 8) by exact L.
    destruct (N.leb_spec (le_val h) (N.of_nat (length b1))); [|lia]. now rewrite R.
Qed.

(* every slice element occupies at least one byte, so the decoder's test "length prefix <= bytes remaining" refuses no
   encoding ([roundtrip]); the allocation bounds at the end of the file need the test alone, not [wf] *)
Fixpoint wf (s : schema) : Prop :=
  match s with
  | SSlice s => (1 <= minsize s)%nat /\ wf s
  | SPtr s => wf s
  | SPair a b => wf a /\ wf b
  | _ => True
  end.
Fixpoint wfb (s : schema) : bool :=
  match s with
  | SSlice s => Nat.leb 1 (minsize s) && wfb s
  | SPtr s => wfb s
  | SPair a b => wfb a && wfb b
  | _ => true
  end.
Lemma wfb_wf s : wfb s = true -> wf s.
Proof.
  induction s; cbn [wfb wf]; auto; intros H.
  - apply andb_true_iff in H. destruct H as [A B]. apply Nat.leb_le in A. auto.
  - apply andb_true_iff in H. destruct H; auto.
Qed.
Lemma wfb_Forall {A} (g : A -> schema) l : forallb (fun x => wfb (g x)) l = true -> Forall (fun x => wf (g x)) l.
Proof. rewrite forallb_forall, Forall_forall. intros H x Hx. apply wfb_wf, H, Hx. Qed.

Lemma enc_minsize s : forall v, wt s v -> (minsize s <= length (enc s v))%nat.
Proof.
  induction s as [| | |k| |s _|s _| |a IHa c IHc|name]; intros v H; destruct v; cbn [wt enc minsize] in *; try contradiction;
    rewrite ?app_length, ?le_bytes_length; cbn [length]; try lia.
  - destruct o; cbn [length]; lia.
  - destruct H as [H1 H2]. specialize (IHa _ H1). specialize (IHc _ H2). lia.
  - now apply rvalid_nonempty in H.
Qed.

Lemma flat_map_len s l : (1 <= minsize s)%nat -> Forall (wt s) l -> (length l <= length (flat_map (enc s) l))%nat.
Proof.
  intros Hm. induction 1 as [|x l Hx _ IH]; simpl; [lia|].
  rewrite app_length. pose proof (enc_minsize s x Hx). lia.
Qed.

Theorem roundtrip s : wf s -> complete (dec s) (enc s) (wt s).
Proof.
  induction s as [| | |k| |s IH|s IH| |a IHa c IHc|name]; intros Hwf v rest H; destruct v; simpl in H; try contradiction.
  - reflexivity.
  - cbn [enc dec]. rewrite take_app by apply le_bytes_length. now rewrite (le_val_bytes 8).
  - destruct b; reflexivity.
  - cbn [enc dec]. now rewrite take_app.
  - apply dec_bytes_iff. exists (le_bytes 8 (N.of_nat (length l))), l. cbn [enc].
    rewrite le_bytes_length, (le_val_bytes 8), <- app_assoc by exact H. auto.
  - apply wt_slice_iff in H as [Hlen Hall]. destruct Hwf as [Hm Hwf]. cbn [enc]. rewrite <- app_assoc.
    apply dec_slice_iff. exists (le_bytes 8 (N.of_nat (length l))), (flat_map (enc s) l ++ rest), l.
    rewrite le_bytes_length, (le_val_bytes 8), Nat2N.id, app_length by exact Hlen.
    pose proof (flat_map_len s l Hm Hall). repeat split; [lia|].
    exact (rep_complete _ _ _ (IH Hwf) l rest Hall).
  - destruct o as [x|]; cbn [enc dec]; [|reflexivity].
    simpl. now rewrite (IH Hwf x rest H).
  - reflexivity.
  - destruct H as [H1 H2]. destruct Hwf as [W1 W2]. cbn [enc dec]. rewrite <- app_assoc.
    rewrite (IHa W1 _ _ H1), (IHc W2 _ _ H2). reflexivity.
  - cbn [enc dec]. now rewrite (recog_ok _ _ rest H).
Qed.

Corollary reencode s v : wf s -> wt s v ->
  match dec s (enc s v) with Some (v', []) => enc s v' = enc s v | _ => False end.
Proof. intros W T. pose proof (roundtrip s W v [] T) as R. rewrite app_nil_r in R. rewrite R. reflexivity. Qed.

Corollary enc_injective s v w : wf s -> wt s v -> wt s w -> enc s v = enc s w -> v = w.
Proof. intros W. exact (complete_injective _ _ _ (roundtrip s W) v w). Qed.

(* a decoded slice or byte string never has more elements than the input has bytes: the length prefix
   is compared with the bytes remaining before anything is allocated *)
Theorem slice_alloc_bound s b l r : dec (SSlice s) b = Some (VList l, r) -> (length l + 8 <= length b)%nat.
Proof.
  intros D. apply dec_slice_iff in D as (h & b1 & l' & L & LE & R & -> & E). injection E as <-.
  apply rep_length in R. rewrite app_length. lia.
Qed.

Theorem bytes_alloc_bound b d r : dec SBytes b = Some (VBytes d, r) -> (length d + 8 <= length b)%nat.
Proof.
  intros D. apply dec_bytes_iff in D as (h & d' & L & _ & -> & E). injection E as <-. rewrite !app_length. lia.
Qed.
End Codec.
