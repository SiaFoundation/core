(* Prefix parsers: functions that read one value off the front of a byte string and return it with the bytes
   they left. Every decoder and fragment recogniser of the wire format is one, and what is proved of each is
   some of: it inverts the encoder whatever follows (complete), it does not look past what it consumes
   (stable), it accepts nothing but encodings (sound). A recogniser returns the bytes of the encoding themselves, and
   the notions apply to it with the identity for an encoder. Here is what follows from these notions alone, and a counted
   repetition [rep], which preserves all of them; the element loops of the slice decoder and of the policy threshold
   decoder are written out in their own definitions and shown equal to it (Schema.dec_slice_eq, PolicyWire.dec_list_rep). *)
From Coq Require Import List NArith.
From Sia Require Import Prim.Tok.
Import ListNotations.

Section Parser.
Context {A : Type}.
Variable p : bytes -> option (A * bytes).
Variable e : A -> bytes.
Variable V : A -> Prop.

Definition complete := forall a r, V a -> p (e a ++ r) = Some (a, r).
Definition stable := forall b a r q, p b = Some (a, r) -> p (b ++ q) = Some (a, r ++ q).
(* [ok] is a condition on the single bytes of the input: [bytes] is [list N], and its invariant (each element below 256,
   Canonical.byte_okl) has to be assumed of an input before a number read from it can be said to encode back to it *)
Definition sound (ok : N -> Prop) := forall b a r, Forall ok b -> p b = Some (a, r) -> b = e a ++ r /\ V a.

Lemma complete_injective : complete -> forall a a', V a -> V a' -> e a = e a' -> a = a'.
Proof.
  intros C a a' Va Va' E. pose proof (C a [] Va) as D. rewrite E, (C a' [] Va') in D. now inversion D.
Qed.

Lemma stable_prefix_rejected : stable -> forall b a b1 q, p b = Some (a, []) -> b = b1 ++ q -> q <> [] -> p b1 = None.
Proof.
  intros S b a b1 q D -> NE. destruct (p b1) as [[a' r]|] eqn:D1; [|reflexivity].
  apply (S _ _ _ q) in D1. rewrite D in D1. injection D1 as _ E. symmetry in E. apply app_eq_nil in E as [_ Eq]. destruct (NE Eq).
Qed.

Lemma sound_injective ok : sound ok -> forall b b' a, Forall ok b -> Forall ok b' ->
  p b = Some (a, []) -> p b' = Some (a, []) -> b = b'.
Proof. intros S b b' a O O' D D'. destruct (S _ _ _ O D) as [-> _], (S _ _ _ O' D') as [-> _]. reflexivity. Qed.

(* a proper prefix of an encoding would be the encoding of the value read from it, followed by something *)
Lemma truncated_rejected ok : complete -> sound ok -> forall a b q, V a -> Forall ok (e a) ->
  e a = b ++ q -> q <> [] -> p b = None.
Proof.
  intros C S a b q Va O E NE. destruct (p b) as [[a' r]|] eqn:D; [|reflexivity]. exfalso.
  rewrite E in O. apply Forall_app in O as [Ob _]. destruct (S _ _ _ Ob D) as [-> Va'].
  pose proof (C a [] Va) as D1. rewrite app_nil_r, E, <- app_assoc, (C a' _ Va') in D1.
  injection D1 as _ Er. apply app_eq_nil in Er as [_ Eq]. exact (NE Eq).
Qed.
End Parser.

Section Rep.
Context {A : Type}.
Variable d : bytes -> option (A * bytes).

Fixpoint rep (k : nat) (b : bytes) : option (list A * bytes) :=
  match k with
  | O => Some ([], b)
  | S k => match d b with
           | Some (x, r) => match rep k r with Some (xs, r') => Some (x :: xs, r') | None => None end
           | None => None
           end
  end.

Lemma rep_S_inv k b l r : rep (S k) b = Some (l, r) ->
  exists x b1 xs, d b = Some (x, b1) /\ rep k b1 = Some (xs, r) /\ l = x :: xs.
Proof.
  cbn [rep]. destruct (d b) as [[x b1]|]; [|discriminate]. destruct (rep k b1) as [[xs r']|] eqn:R; [|discriminate].
  intros E. inversion E; subst. now exists x, b1, xs.
Qed.

Lemma rep_length k : forall b l r, rep k b = Some (l, r) -> length l = k.
Proof.
  induction k as [|k IH]; intros b l r E; [now inversion E|].
  apply rep_S_inv in E as (x & b1 & xs & _ & E & ->). cbn [length]. f_equal. exact (IH _ _ _ E).
Qed.

Lemma rep_stable : stable d -> forall k, stable (rep k).
Proof.
  intros S. induction k as [|k IH]; intros b l r q E; [now inversion E|].
  apply rep_S_inv in E as (x & b1 & xs & D & E & ->). cbn [rep]. now rewrite (S _ _ _ q D), (IH _ _ _ q E).
Qed.

Variable e : A -> bytes.
Variable V : A -> Prop.

Lemma rep_complete : complete d e V -> forall l r, Forall V l -> rep (length l) (flat_map e l ++ r) = Some (l, r).
Proof.
  intros C l r. induction 1 as [|x l Vx _ IH]; [reflexivity|].
  cbn [length flat_map rep]. now rewrite <- app_assoc, (C _ _ Vx), IH.
Qed.

Lemma rep_sound ok : sound d e V ok -> forall k, sound (rep k) (flat_map e) (Forall V) ok.
Proof.
  intros S. induction k as [|k IH]; intros b l r O E; [inversion E; now split|].
  apply rep_S_inv in E as (x & b1 & xs & D & E & ->). destruct (S _ _ _ O D) as [-> Vx].
  apply Forall_app in O as [_ O1]. destruct (IH _ _ _ O1 E) as [-> Vxs].
  cbn [flat_map]. rewrite <- app_assoc. split; [reflexivity | now constructor].
Qed.
End Rep.

Lemma rep_ext {A} (d d' : bytes -> option (A * bytes)) : (forall b, d b = d' b) ->
  forall k b, rep d k b = rep d' k b.
Proof. intros H. induction k as [|k IH]; intros b; [reflexivity|]. cbn [rep]. rewrite H. destruct (d' b) as [[x r]|]; [now rewrite IH | reflexivity]. Qed.
