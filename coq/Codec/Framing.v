(* RPC framing (rhp/v4/transport.go): a receiver decodes from an io.LimitedReader of maxLen bytes.
   - whatever is sent, at most maxLen bytes are consumed;
   - a message whose encoding fits the limit is decoded to the same object, whatever follows it on the stream;
   - a response is a flag byte followed by an error or the object; an error is delivered as that error.
   Together with Size.enc_size and the per-object obligations at the end (re-checked on every run against the
   regenerated shapes and the implementation's own maxLen() values), every object within the protocol's batch
   limits is accepted by the limit the receiver applies to it. *)
From Coq Require Import String.
From Coq Require Import List NArith Lia Bool PeanoNat.
From Sia Require Import Prim.Tok Codec.Schema Codec.Shape Codec.Size Gen.Schemas Gen.Limits.
Import ListNotations.
Local Open Scope nat_scope.
Local Open Scope list_scope.

Section Framing.
Variable recog : string -> bytes -> option (bytes * bytes).
Variable rvalid : string -> bytes -> Prop.
Hypothesis recog_ok : forall name b rest, rvalid name b -> recog name (b ++ rest) = Some (b, rest).
Hypothesis rvalid_nonempty : forall name b, rvalid name b -> 1 <= length b.

(* withDecoder(r, maxLen, decode) *)
Definition read_limited (maxLen : nat) (s : schema) (stream : bytes) : option (val * bytes) :=
  dec recog s (firstn maxLen stream).

Lemma firstn_app_le {A} n (a b : list A) : length a <= n -> firstn n (a ++ b) = a ++ firstn (n - length a) b.
Proof. intros L. rewrite firstn_app. rewrite firstn_all2 by exact L. reflexivity. Qed.

Theorem frame_accepts maxLen s v rest : wf s -> wt rvalid s v -> length (enc s v) <= maxLen ->
  read_limited maxLen s (enc s v ++ rest) = Some (v, firstn (maxLen - length (enc s v)) rest).
Proof.
  intros Wf Wt L. unfold read_limited. rewrite firstn_app_le by exact L.
  apply (roundtrip recog rvalid recog_ok rvalid_nonempty); assumption.
Qed.

Theorem frame_bounded maxLen (stream : bytes) : length (firstn maxLen stream) <= maxLen.
Proof. apply firstn_le_length. Qed.
Theorem frame_ignores_beyond maxLen s s1 s2 : firstn maxLen s1 = firstn maxLen s2 ->
  read_limited maxLen s s1 = read_limited maxLen s s2.
Proof. unfold read_limited. intros ->. reflexivity. Qed.

(* WriteResponse / ReadResponse *)
Definition enc_response (se so : schema) (r : val + val) : bytes :=
  match r with inl e => 1%N :: enc se e | inr o => 0%N :: enc so o end.
Definition dec_response (se so : schema) (b : bytes) : option ((val + val) * bytes) :=
  match b with
  | 1%N :: r => match dec recog se r with Some (e, r') => Some (inl e, r') | None => None end
  | 0%N :: r => match dec recog so r with Some (o, r') => Some (inr o, r') | None => None end
  | _ => None
  end.
Definition read_response (limit : nat) (se so : schema) (stream : bytes) := dec_response se so (firstn limit stream).

Theorem response_delivered limit se so r rest : wf se -> wf so ->
  match r with inl e => wt rvalid se e | inr o => wt rvalid so o end ->
  length (enc_response se so r) <= limit ->
  read_response limit se so (enc_response se so r ++ rest) = Some (r, firstn (limit - length (enc_response se so r)) rest).
Proof.
  intros We Wo Wt L. unfold read_response. rewrite firstn_app_le by exact L.
  destruct r as [e|o]; cbn [enc_response dec_response app].
  - rewrite (roundtrip recog rvalid recog_ok rvalid_nonempty se We e _ Wt). reflexivity.
  - rewrite (roundtrip recog rvalid recog_ok rvalid_nonempty so Wo o _ Wt). reflexivity.
Qed.

Corollary error_delivered_as_error limit se so e rest : wf se -> wf so -> wt rvalid se e ->
  1 + length (enc se e) <= limit ->
  exists rest', read_response limit se so (enc_response se so (inl e) ++ rest) = Some (inl e, rest').
Proof.
  intros We Wo Wt L. eexists. apply (response_delivered limit se so (inl e)); auto.
Qed.

Corollary sized_accepted maxLen s b v rest : wf s -> wt rvalid s v -> within s b v ->
  (maxsize s b <= N.of_nat maxLen)%N ->
  read_limited maxLen s (enc s v ++ rest) = Some (v, firstn (maxLen - length (enc s v)) rest).
Proof.
  intros Wf Wt Wi M. apply frame_accepts; auto.
  pose proof (enc_size rvalid s b v Wt Wi) as E. unfold len in E. lia.
Qed.
End Framing.

Local Open Scope string_scope.
Local Open Scope N_scope.
Fixpoint lookupN (n : string) (l : list (string * N)) : option N :=
  match l with [] => None | (m, v) :: r => if String.eqb n m then Some v else lookupN n r end.
Definition const (n : string) : N := match lookupN n gen_consts with Some v => v | None => 0 end.
Definition BATCH : N := const "MaxSectorBatchSize".
Definition ACCTS : N := const "MaxAccountBatchSize".
Definition ERRMAX : N := match lookupN "rhp/v4.RPCError" gen_maxlen with Some v => v | None => 0 end.

(* the protocol's own limits on every collection of each RPC object, in encoding order
   (rhp/v4/validation.go, rhp/v4/rhp.go; Merkle proof lengths from the tree heights) *)
Definition rpc_limits : list (string * list N) := [
  ("rhp/v4.RPCAccountBalanceRequest", []); ("rhp/v4.RPCAccountBalanceResponse", []);
  ("rhp/v4.RPCAppendSectorsRequest", [BATCH]);
  ("rhp/v4.RPCAppendSectorsResponse", [BATCH; BATCH]);
  ("rhp/v4.RPCAppendSectorsSecondResponse", []); ("rhp/v4.RPCAppendSectorsThirdResponse", []);
  ("rhp/v4.RPCAttachPoolsRequest", [ACCTS]); ("rhp/v4.RPCAttachPoolsResponse", []);
  ("rhp/v4.RPCDetachPoolsRequest", [ACCTS]); ("rhp/v4.RPCDetachPoolsResponse", []);
  ("rhp/v4.RPCFreeSectorsRequest", [BATCH]);
  ("rhp/v4.RPCFreeSectorsSecondResponse", []); ("rhp/v4.RPCFreeSectorsThirdResponse", []);
  ("rhp/v4.RPCFundAccountsRequest", [ACCTS]); ("rhp/v4.RPCFundAccountsResponse", [ACCTS]);
  ("rhp/v4.RPCLatestRevisionRequest", []); ("rhp/v4.RPCLatestRevisionResponse", []);
  ("rhp/v4.RPCReadSectorRequest", []); ("rhp/v4.RPCReadSectorResponse", [32]);
  ("rhp/v4.RPCReplenishAccountsRequest", [ACCTS]); ("rhp/v4.RPCReplenishAccountsResponse", [ACCTS]);
  ("rhp/v4.RPCReplenishAccountsSecondResponse", []); ("rhp/v4.RPCReplenishAccountsThirdResponse", []);
  ("rhp/v4.RPCSectorRootsRequest", []); ("rhp/v4.RPCSectorRootsResponse", [128; BATCH]);
  ("rhp/v4.RPCSettingsRequest", []);
  ("rhp/v4.RPCVerifySectorRequest", []); ("rhp/v4.RPCVerifySectorResponse", [32]);
  ("rhp/v4.RPCWriteSectorRequest", []); ("rhp/v4.RPCWriteSectorResponse", []) ].

Fixpoint find_shape (n : string) (l : list (string * shape * shape)) : option shape :=
  match l with [] => None | (m, e, _) :: r => if String.eqb n m then Some e else find_shape n r end.
Definition is_response (n : string) : bool := substringb "Response" n.
(* the limit the receiver applies: ReadRequest: maxLen; ReadResponse: error maxLen + maxLen, for flag byte + body *)
Definition receiver_limit (n : string) : option N :=
  match lookupN n gen_maxlen with
  | Some ml => Some (if is_response n then ERRMAX + ml else ml)
  | None => None
  end.
Definition object_size (n : string) (lims : list N) : option N :=
  match find_shape n gen_types with
  | Some e => match to_schema e with
              | Some s => Some ((if is_response n then 1 else 0) + maxsize_with s lims)
              | None => None
              end
  | None => None
  end.
Definition check_obj (x : string * list N) : bool :=
  match object_size (fst x) (snd x), receiver_limit (fst x) with
  | Some sz, Some lim => sz <=? lim
  | _, _ => false
  end.
Definition failing_objects : list string := map fst (filter (fun x => negb (check_obj x)) rpc_limits).

Lemma limits_accept_all : failing_objects = [].
Proof. vm_compute. reflexivity. Qed.

(* an error whose description has at most ERRDESC bytes fits the limit of every response *)
Definition ERRDESC : N := ERRMAX - 1 - 1 - 8.
Lemma error_fits : match object_size "rhp/v4.RPCError" [ERRDESC] with Some sz => sz <=? ERRMAX | None => false end = true.
Proof. vm_compute. reflexivity. Qed.
