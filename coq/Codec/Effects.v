(* What the semantic encoding of a v2 transaction (the pre-image of its ID and of the input signature
   hash) must write and must blank — compared on every run with what the translator reads off
   V2TransactionSemantics.EncodeTo in /repo. Then the distinguisher strings of the derived identifiers, listed by hand:
   none contains '|' (the hypothesis [no_bar] of Hash/Ids.v) and no two are equal. *)
From Coq Require Import String.
From Coq Require Import List Bool.
From Sia Require Import Prim.Tok Codec.Shape Codec.Oblig Gen.Schemas Hash.Ids.
Import ListNotations.
Open Scope string_scope.

Definition find3 (n : string) (l : list (string * list string * list string)) : option (list string * list string) :=
  match find (fun x => String.eqb (fst (fst x)) n) l with Some (_, w, nl) => Some (w, nl) | None => None end.

(* effect-bearing content of a v2 transaction: everything except witnesses, contract / renewal signatures,
   parent element contents other than their IDs, and Merkle proofs.
   NOTE (known finding F8): SiafundInputs[].ClaimAddress is effect-bearing but is NOT written by the
   implementation; it is deliberately absent from this list and reported as a known finding. *)
Definition semantics_written : list string := [
  "uint64(len(txn.SiacoinInputs))"; "txn.SiacoinInputs[].Parent.ID";
  "uint64(len(txn.SiacoinOutputs))"; "V2SiacoinOutput(txn.SiacoinOutputs[])";
  "uint64(len(txn.SiafundInputs))"; "txn.SiafundInputs[].Parent.ID";
  "uint64(len(txn.SiafundOutputs))"; "V2SiafundOutput(txn.SiafundOutputs[])";
  "uint64(len(txn.FileContracts))"; "txn.FileContracts[]";
  "uint64(len(txn.FileContractRevisions))"; "txn.FileContractRevisions[].Parent.ID"; "txn.FileContractRevisions[].Revision";
  "uint64(len(txn.FileContractResolutions))"; "txn.FileContractResolutions[].Parent.ID"; "txn.FileContractResolutions[].Resolution";
  "uint64(len(txn.Attestations))"; "txn.Attestations[]";
  "txn.ArbitraryData"; "txn.NewFoundationAddress"; "V2Currency(txn.MinerFee)" ].
Definition semantics_blanked : list string := [
  "txn.FileContracts[].RenterSignature"; "txn.FileContracts[].HostSignature";
  "txn.FileContractRevisions[].Revision.RenterSignature"; "txn.FileContractRevisions[].Revision.HostSignature";
  "renewal.NewContract.RenterSignature"; "renewal.NewContract.HostSignature"; "renewal.RenterSignature"; "renewal.HostSignature";
  "sp.ProofIndex.StateElement.MerkleProof" ].

Lemma semantics_pinned :
  match find3 "types.V2TransactionSemantics" gen_written with
  | Some (w, nl) => strs_eqb w semantics_written && strs_eqb nl semantics_blanked
  | None => false
  end = true.
Proof. vm_compute. reflexivity. Qed.

(* the v1 transaction ID hashes the transaction without its signatures: every other field is written *)
Lemma v1_id_covers :
  match find3 "types.txnSansSigs" gen_written with
  | Some (w, _) => forallb (fun f => existsb (fun p => substringb ("txn." ++ f) p) w)
                     ["SiacoinInputs"; "SiacoinOutputs"; "FileContracts"; "FileContractRevisions"; "StorageProofs";
                      "SiafundInputs"; "SiafundOutputs"; "MinerFees"; "ArbitraryData"]
                   && negb (existsb (fun p => substringb "Signatures" p) w)
  | None => false
  end = true.
Proof. vm_compute. reflexivity. Qed.

Definition bytes_of_string (s : string) : bytes := map (fun a => Ascii.N_of_ascii a) (list_ascii_of_string s).
Definition distinguishers : list string := [
  "id/transaction"; "id/siacoinoutput"; "id/siafundoutput"; "id/filecontract"; "id/attestation";
  "id/v2siacoinclaimoutput"; "id/v2filecontractoutput"; "id/v2filecontractrenewal";
  "sig/input"; "sig/filecontract"; "sig/filecontractrenewal"; "sig/attestation";
  "leaf/chainindex"; "leaf/siacoin"; "leaf/siafund"; "leaf/filecontract"; "leaf/v2filecontract"; "leaf/attestation";
  "address"; "commitment" ].
(* the byte strings used as distinguishers contain no '|' (so that "sia/<name>|" is self-delimiting) *)
Lemma distinguishers_wellformed : forallb (fun s => no_barb (bytes_of_string s)) distinguishers = true.
Proof. vm_compute. reflexivity. Qed.
Fixpoint pairwise_distinct (l : list string) : bool :=
  match l with [] => true | x :: r => negb (existsb (String.eqb x) r) && pairwise_distinct r end.
Lemma distinguishers_distinct : pairwise_distinct distinguishers = true.
Proof. vm_compute. reflexivity. Qed.
