(* Decoder canonicity for the generic codec: whatever the decoder accepts is the encoding of the value it returns
   (followed by the bytes it left), so every value has exactly one accepted encoding, and no proper prefix of an
   encoding is accepted. *)
From Coq Require Import String.
From Coq Require Import List NArith Lia Bool PeanoNat.
From Sia Require Import Prim.Tok Codec.Parser Codec.Schema.
Import ListNotations.
Local Open Scope N_scope.

(* the invariant of [bytes] (Prim/Tok.v), which the type [list N] does not carry *)
Definition byte_okl (b : bytes) : Prop := Forall (fun x => x < 256) b.

Lemma le_val_bound h : byte_okl h -> le_val h < 256 ^ N.of_nat (length h).
Proof.
  induction 1 as [|x h Hx _ IH]; cbn [le_val length]; [cbn; lia|].
  rewrite Nat2N.inj_succ, N.pow_succ_r'. lia.
Qed.
Lemma le_bytes_val h : byte_okl h -> le_bytes (length h) (le_val h) = h.
Proof.
  induction 1 as [|x h Hx _ IH]; [reflexivity|]. cbn [length le_val le_bytes].
  now rewrite (N.mul_comm 256), N.mod_add, N.div_add, (N.mod_small x), (N.div_small x), N.add_0_l, IH by (exact Hx || discriminate).
Qed.

Lemma len8_canon h : byte_okl h -> length h = 8%nat -> le_bytes 8 (le_val h) = h /\ le_val h < 2^64.
Proof.
  intros O L. pose proof (le_bytes_val h O) as C. pose proof (le_val_bound h O) as B. rewrite L in C, B.
  split; [exact C | exact B].
Qed.

Section Canon.
Variable recog : string -> bytes -> option (bytes * bytes).
Variable rvalid : string -> bytes -> Prop.
Hypothesis recog_sound : forall name b x r, byte_okl b -> recog name b = Some (x, r) -> b = x ++ r /\ rvalid name x.

Theorem dec_canonical s : forall b v r, byte_okl b -> dec recog s b = Some (v, r) ->
  b = enc s v ++ r /\ wt rvalid s v.
Proof.
  induction s as [| | |k| |s IH|s IH| |a IHa c IHc|name]; intros b v r OK D.
  - destruct b as [|x b']; [discriminate|]. inversion D; subst. apply Forall_cons_iff in OK as [Hx _]. now split.
  - cbn [dec] in D. destruct (take 8 b) as [[h r']|] eqn:T; [|discriminate]. inversion D; subst.
    apply take_split in T as [-> L]. apply Forall_app in OK as [Oh _]. destruct (len8_canon h Oh L) as [C B].
    cbn [enc wt]. now rewrite C.
  - destruct b as [|[|[| |]] b']; try discriminate; inversion D; now split.
  - cbn [dec] in D. destruct (take k b) as [[h r']|] eqn:T; [|discriminate]. inversion D; subst.
    apply take_split in T as [-> L]. now split.
  - apply dec_bytes_iff in D as (h & d & L & E & -> & ->). apply Forall_app in OK as [Oh _].
    destruct (len8_canon h Oh L) as [C B]. cbn [enc wt]. rewrite <- E, C, <- app_assoc. now split.
  - apply dec_slice_iff in D as (h & b1 & l & L & _ & R & -> & ->). apply Forall_app in OK as [Oh O1].
    pose proof (rep_length _ _ _ _ _ R) as Len. destruct (rep_sound _ _ _ _ IH _ _ _ _ O1 R) as [-> W].
    destruct (len8_canon h Oh L) as [C B]. rewrite wt_slice_iff. cbn [enc].
    rewrite Len, N2Nat.id, C, <- app_assoc. now repeat split.
  - destruct b as [|[|[| |]] b']; cbn [dec] in D; try discriminate.
    + inversion D; now split.
    + destruct (dec recog s b') as [[y r']|] eqn:Dy; [|discriminate]. inversion D; subst.
      apply Forall_cons_iff in OK as [_ O1]. destruct (IH _ _ _ O1 Dy) as [-> Wy]. now split.
  - inversion D; now split.
  - cbn [dec] in D. destruct (dec recog a b) as [[x r1]|] eqn:Dx; [|discriminate].
    destruct (dec recog c r1) as [[y r2]|] eqn:Dy; [|discriminate]. inversion D; subst.
    destruct (IHa _ _ _ OK Dx) as [-> Wx]. apply Forall_app in OK as [_ O1].
    destruct (IHc _ _ _ O1 Dy) as [-> Wy]. cbn [enc wt]. rewrite <- app_assoc. now repeat split.
  - cbn [dec] in D. destruct (recog name b) as [[x r']|] eqn:Rx; [|discriminate]. inversion D; subst.
    destruct (recog_sound _ _ _ _ OK Rx) as [-> V]. now split.
Qed.
End Canon.

Section Consequences.
Variable recog : string -> bytes -> option (bytes * bytes).
Variable rvalid : string -> bytes -> Prop.
Hypothesis recog_ok : forall name b rest, rvalid name b -> recog name (b ++ rest)%list = Some (b, rest).
Hypothesis rvalid_nonempty : forall name b, rvalid name b -> (1 <= length b)%nat.
Hypothesis recog_sound : forall name b x r, byte_okl b -> recog name b = Some (x, r) -> b = (x ++ r)%list /\ rvalid name x.

Corollary decode_injective s b1 b2 v : byte_okl b1 -> byte_okl b2 ->
  dec recog s b1 = Some (v, []) -> dec recog s b2 = Some (v, []) -> b1 = b2.
Proof. exact (sound_injective _ _ _ _ (dec_canonical recog rvalid recog_sound s) b1 b2 v). Qed.

Theorem truncation_rejected s v p q : wf s -> wt rvalid s v -> byte_okl (enc s v) ->
  enc s v = (p ++ q)%list -> q <> [] -> dec recog s p = None.
Proof.
  intros Wf. exact (truncated_rejected _ _ _ _ (roundtrip recog rvalid recog_ok rvalid_nonempty s Wf)
                      (dec_canonical recog rvalid recog_sound s) v p q).
Qed.
End Consequences.

Section Extend.
Variable recog : string -> bytes -> option (bytes * bytes).
Hypothesis recog_extend : forall name b x r q, recog name b = Some (x, r) -> recog name (b ++ q) = Some (x, r ++ q).

Theorem dec_extend s : forall b v r q, dec recog s b = Some (v, r) -> dec recog s (b ++ q) = Some (v, r ++ q).
Proof.
  induction s as [| | |k| |s IH|s IH| |a IHa c IHc|name]; intros b v r q D.
  - destruct b; [discriminate|]. inversion D; subst. reflexivity.
  - cbn [dec] in D |- *. destruct (take 8 b) as [[h r']|] eqn:T; [|discriminate]. inversion D; subst.
    now rewrite (take_extend _ _ _ _ q T).
  - destruct b as [|[|[| |]] b']; try discriminate; inversion D; reflexivity.
  - cbn [dec] in D |- *. destruct (take k b) as [[h r']|] eqn:T; [|discriminate]. inversion D; subst.
    now rewrite (take_extend _ _ _ _ q T).
  - apply dec_bytes_iff in D as (h & d & L & E & -> & ->). apply dec_bytes_iff. exists h, d.
    now rewrite <- !app_assoc.
  - apply dec_slice_iff in D as (h & b1 & l & L & LE & R & -> & ->). apply dec_slice_iff. exists h, (b1 ++ q), l.
    rewrite app_length, <- app_assoc. repeat split; [exact L | lia | exact (rep_stable _ IH _ _ _ _ q R)].
  - destruct b as [|[|[| |]] b']; cbn [dec app] in D |- *; try discriminate.
    + inversion D; reflexivity.
    + destruct (dec recog s b') as [[y r']|] eqn:Dy; [|discriminate]. inversion D; subst.
      now rewrite (IH _ _ _ q Dy).
  - inversion D; reflexivity.
  - cbn [dec] in D |- *. destruct (dec recog a b) as [[x r1]|] eqn:Dx; [|discriminate].
    destruct (dec recog c r1) as [[y r2]|] eqn:Dy; [|discriminate]. inversion D; subst.
    now rewrite (IHa _ _ _ q Dx), (IHc _ _ _ q Dy).
  - cbn [dec] in D |- *. destruct (recog name b) as [[x r']|] eqn:Rx; [|discriminate]. inversion D; subst.
    now rewrite (recog_extend _ _ _ _ q Rx).
Qed.

(* a truncated encoding is an error, never a partial value; unlike [truncation_rejected] this needs no canonicity *)
Theorem prefix_rejected s b v p q : dec recog s b = Some (v, []) -> b = p ++ q -> q <> [] -> dec recog s p = None.
Proof. exact (stable_prefix_rejected _ (dec_extend s) b v p q). Qed.
End Extend.
