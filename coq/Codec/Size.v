(* Encoded sizes: an upper bound of the generic encoding under per-collection length limits.
   The bound tree mirrors the schema: a limit for every length-prefixed collection / byte string /
   hand-modelled fragment, nested limits for the elements of a slice.  Sizes are in N (binary), so
   that protocol limits of millions of elements are evaluated by the kernel without unary numbers. *)
From Coq Require Import String.
From Coq Require Import List NArith Lia Bool PeanoNat.
From Sia Require Import Prim.Tok Codec.Schema.
Import ListNotations.
Local Open Scope N_scope.

Inductive bnd := BNone | BLen (n : N) (inner : bnd) | BPair (a b : bnd) | BRaw (n : N).

Fixpoint maxsize (s : schema) (b : bnd) : N :=
  match s with
  | SU8 => 1 | SU64 => 8 | SBool => 1 | SFixed k => N.of_nat k
  | SBytes => match b with BLen n _ => 8 + n | _ => 8 end
  | SSlice s => match b with BLen n i => 8 + n * maxsize s i | _ => 8 end
  | SPtr s => 1 + maxsize s b
  | SUnit => 0
  | SPair a c => match b with BPair x y => maxsize a x + maxsize c y | _ => 0 end
  | SRaw _ => match b with BRaw n => n | _ => 0 end
  end.

Definition len (l : bytes) : N := N.of_nat (length l).

Fixpoint within (s : schema) (b : bnd) (v : val) {struct s} : Prop :=
  match s, v with
  | SBytes, VBytes l => match b with BLen n _ => len l <= n | _ => False end
  | SSlice s, VList l =>
      match b with
      | BLen n i => N.of_nat (length l) <= n /\ (fix all (l : list val) := match l with [] => True | x :: t => within s i x /\ all t end) l
      | _ => False
      end
  | SPtr s, VOpt (Some x) => within s b x
  | SPair a c, VPair x y => match b with BPair bx bc => within a bx x /\ within c bc y | _ => False end
  | SRaw _, VRaw r => match b with BRaw n => len r <= n | _ => False end
  | _, _ => True
  end.

Section Size.
Variable rvalid : string -> bytes -> Prop.

Lemma within_slice_iff s n i l :
  within (SSlice s) (BLen n i) (VList l) <-> N.of_nat (length l) <= n /\ Forall (within s i) l.
Proof. cbn [within]. now rewrite all_Forall. Qed.

Lemma flat_map_bound s i (IH : forall v, wt rvalid s v -> within s i v -> len (enc s v) <= maxsize s i) l :
  Forall (wt rvalid s) l -> Forall (within s i) l -> len (flat_map (enc s) l) <= N.of_nat (length l) * maxsize s i.
Proof.
  unfold len in *. induction 1 as [|x t Wx _ IHl]; intros B; cbn [flat_map length]; [lia|].
  apply Forall_cons_iff in B as [Bx Bt]. rewrite app_length. specialize (IH x Wx Bx). specialize (IHl Bt). lia.
Qed.

Theorem enc_size s : forall b v, wt rvalid s v -> within s b v -> len (enc s v) <= maxsize s b.
Proof.
  unfold len.
  induction s as [| | |k| |s IH|s IH| |a IHa c IHc|name]; intros b v W B; destruct v; cbn [wt] in W; try contradiction;
    cbn [enc maxsize within] in *; unfold len in *; try (cbn [length]; lia).
  - rewrite le_bytes_length. lia.
  - destruct b as [|n i| |]; try contradiction. rewrite app_length, le_bytes_length. lia.
  - destruct b as [|n i| |]; try contradiction. apply wt_slice_iff in W as [_ W]. apply within_slice_iff in B as [Bn B].
    rewrite app_length, le_bytes_length.
    pose proof (flat_map_bound s i (IH i) l W B) as F. unfold len in F.
    assert (N.of_nat (length l) * maxsize s i <= n * maxsize s i) by (apply N.mul_le_mono_r; exact Bn). lia.
  - destruct o as [x|]; cbn [length].
    + specialize (IH b x W B). lia.
    + lia.
  - destruct b as [| |bx bc|]; try contradiction. destruct W as [Wa Wc]. destruct B as [Ba Bc].
    rewrite app_length. specialize (IHa bx _ Wa Ba). specialize (IHc bc _ Wc Bc). lia.
  - destruct b as [| | |n]; try contradiction. exact B.
Qed.
End Size.

(* bound trees from a flat list of limits, consumed left to right by the collections of the schema
   (the elements of a slice share the limits that follow it) *)
Fixpoint auto_bnd (s : schema) (lims : list N) : bnd * list N :=
  match s with
  | SBytes => match lims with n :: r => (BLen n BNone, r) | [] => (BNone, []) end
  | SSlice s => match lims with
                | n :: r => let (i, r') := auto_bnd s r in (BLen n i, r')
                | [] => (BNone, [])
                end
  | SPtr s => auto_bnd s lims
  | SPair a c => let (x, r) := auto_bnd a lims in let (y, r') := auto_bnd c r in (BPair x y, r')
  | SRaw _ => match lims with n :: r => (BRaw n, r) | [] => (BNone, []) end
  | _ => (BNone, lims)
  end.
Definition maxsize_with (s : schema) (lims : list N) : N := maxsize s (fst (auto_bnd s lims)).
