(* The full set of hand-modelled fragments seen by the generic codec, in layers:
     recog  (Irregular.v)  V1Currency, V1SiafundOutput, SpendPolicy
     recog1                + V2FileContractResolution  (tagged union over generated layouts, decoded with recog)
     recog_all             + V2Transaction             (versioned bit-masked record over generated layouts, decoded with recog1)
   The layouts of the parts are taken from Gen/Schemas.v (regenerated from /repo on every run); the tag values,
   the version byte and the bit order are written here and exercised by the correspondence check. *)
From Coq Require Import String.
From Coq Require Import List NArith Lia Bool PeanoNat.
From Sia Require Import Prim.Tok Codec.Parser Codec.Schema Codec.Shape Codec.Canonical Codec.PolicyWire Codec.Tagged Codec.Irregular Gen.Schemas.
Import ListNotations.
Local Open Scope string_scope.

Section Add.
Variable n : string.
Variable f : bytes -> option (bytes * bytes).
Variable P : bytes -> Prop.
Variable recog : string -> bytes -> option (bytes * bytes).
Variable rvalid : string -> bytes -> Prop.
Definition add_recog (name : string) (b : bytes) : option (bytes * bytes) := if name =? n then f b else recog name b.
Definition add_valid (name : string) (b : bytes) : Prop := if name =? n then P b else rvalid name b.
Lemma add_ok : complete f (fun x => x) P -> (forall name, complete (recog name) (fun x => x) (rvalid name)) ->
  forall name, complete (add_recog name) (fun x => x) (add_valid name).
Proof. intros Hf Hr name. unfold add_valid, add_recog. destruct (name =? n); [apply Hf | apply Hr]. Qed.
Lemma add_nonempty : (forall b, P b -> (1 <= length b)%nat) -> (forall name b, rvalid name b -> (1 <= length b)%nat) ->
  forall name b, add_valid name b -> (1 <= length b)%nat.
Proof. intros Hf Hr name b. unfold add_valid. destruct (name =? n); [apply Hf | apply Hr]. Qed.
Lemma add_extend : stable f -> (forall name, stable (recog name)) -> forall name, stable (add_recog name).
Proof. intros Hf Hr name. unfold add_recog. destruct (name =? n); [apply Hf | apply Hr]. Qed.
Lemma add_sound ok : sound f (fun x => x) P ok -> (forall name, sound (recog name) (fun x => x) (rvalid name) ok) ->
  forall name, sound (add_recog name) (fun x => x) (add_valid name) ok.
Proof. intros Hf Hr name. unfold add_recog, add_valid. destruct (name =? n); [apply Hf | apply Hr]. Qed.
End Add.

Definition sch (h : shape) : schema := match to_schema h with Some s => s | None => SUnit end.

Definition res_pre : schema := Eval vm_compute in sch enc_types_V2FileContractElement.
Definition res_cases : list schema := Eval vm_compute in
  [sch enc_types_V2FileContractRenewal; sch enc_types_V2StorageProof; sch enc_types_V2FileContractExpiration].
Lemma res_pre_wf : wf res_pre. Proof. apply wfb_wf. vm_compute. reflexivity. Qed.
Lemma res_cases_wf : Forall wf res_cases. Proof. apply (wfb_Forall (fun s => s)). vm_compute. reflexivity. Qed.

Definition resolution_name := "types.V2FileContractResolution".
Definition recog_resolution := recog_union recog res_pre res_cases.
Definition valid_resolution := valid_union rvalid res_pre res_cases.
Definition recog1 := add_recog resolution_name recog_resolution recog.
Definition rvalid1 := add_valid resolution_name valid_resolution rvalid.

Lemma recog1_ok name : complete (recog1 name) (fun x => x) (rvalid1 name).
Proof. apply add_ok; [apply (recog_union_ok recog rvalid recog_ok rvalid_nonempty _ _ res_pre_wf res_cases_wf) | apply recog_ok]. Qed.
Lemma rvalid1_nonempty name b : rvalid1 name b -> (1 <= length b)%nat.
Proof. apply add_nonempty; [apply valid_union_nonempty | apply rvalid_nonempty]. Qed.
Lemma recog1_extend name : stable (recog1 name).
Proof. apply add_extend; [apply (recog_union_extend recog recog_extend) | apply recog_extend]. Qed.
Lemma recog1_sound name : sound (recog1 name) (fun x => x) (rvalid1 name) (fun x => (x < 256)%N).
Proof. apply add_sound; [apply (recog_union_sound recog rvalid _ _ recog_sound) | apply recog_sound]. Qed.

Definition empty_list (v : val) : bool := match v with VList [] => true | _ => false end.
Definition empty_bytes (v : val) : bool := match v with VBytes [] => true | _ => false end.
Definition zero_currency (v : val) : bool := match v with VPair (VN 0) (VN 0) => true | _ => false end.
Definition never (_ : val) : bool := false.
Definition txn_field_shapes : list shape := [
  HSlice enc_types_V2SiacoinInput; HSlice enc_types_V2SiacoinOutput; HSlice enc_types_V2SiafundInput; HSlice enc_types_V2SiafundOutput;
  HSlice enc_types_V2FileContract; HSlice enc_types_V2FileContractRevision; HSlice enc_types_V2FileContractResolution;
  HSlice enc_types_Attestation; HBytes; enc_types_Address; enc_types_V2Currency].
Definition txn_field_schemas : list schema := Eval vm_compute in map sch txn_field_shapes.
Definition txn_defaults : list (val -> bool) :=
  [empty_list; empty_list; empty_list; empty_list; empty_list; empty_list; empty_list; empty_list; empty_bytes; never; zero_currency].
Definition txn_fields : list (schema * (val -> bool)) := combine txn_field_schemas txn_defaults.
Lemma txn_fields_wf : Forall (fun f => wf (fst f)) txn_fields.
Proof. apply wfb_Forall. vm_compute. reflexivity. Qed.

Definition txn_name := "types.V2Transaction".
Definition recog_txn := recog_masked recog1 2 txn_fields.
Definition valid_txn := valid_masked rvalid1 2 txn_fields.
Definition recog_all := add_recog txn_name recog_txn recog1.
Definition rvalid_all := add_valid txn_name valid_txn rvalid1.

Lemma recog_all_ok name : complete (recog_all name) (fun x => x) (rvalid_all name).
Proof. apply add_ok; [apply (recog_masked_ok recog1 rvalid1 recog1_ok rvalid1_nonempty recog1_extend _ _ txn_fields_wf) | apply recog1_ok]. Qed.
Lemma rvalid_all_nonempty name b : rvalid_all name b -> (1 <= length b)%nat.
Proof. apply add_nonempty; [apply valid_masked_nonempty | apply rvalid1_nonempty]. Qed.
Lemma recog_all_extend name : stable (recog_all name).
Proof. apply add_extend; [apply (recog_masked_extend recog1 recog1_extend) | apply recog1_extend]. Qed.

(* the V2Transaction decoder is not canonical: a set bit with an empty list, or a bit beyond the last field, is
   accepted and re-encodes differently *)
Example txn_noncanonical_accepted :
  exists b x, recog_txn b = Some (x, []) /\ b <> x.
Proof.
  exists (2 :: le_bytes 8 (1 + 2 ^ 20) ++ le_bytes 8 0)%N, (2 :: le_bytes 8 0)%N. split; [vm_compute; reflexivity | discriminate].
Qed.

Fixpoint mentions (n : string) (s : schema) : bool :=
  match s with
  | SRaw m => m =? n
  | SSlice a | SPtr a => mentions n a
  | SPair a b => mentions n a || mentions n b
  | _ => false
  end.
Lemma dec_add_irrelevant n f recog s : mentions n s = false -> forall b, dec (add_recog n f recog) s b = dec recog s b.
Proof.
  induction s as [| | |k| |s IH|s IH| |a IHa c IHc|name]; intros M b; cbn [mentions] in M; try reflexivity.
  - rewrite !dec_slice_eq. destruct (take 8 b) as [[h b1]|]; [|reflexivity]. now rewrite (rep_ext _ _ (IH M)).
  - destruct b as [|[|[| |]] b']; try reflexivity. cbn [dec]. now rewrite (IH M).
  - apply orb_false_iff in M as [Ma Mc]. cbn [dec]. rewrite (IHa Ma). destruct (dec recog a b) as [[x r]|]; [|reflexivity].
    now rewrite (IHc Mc).
  - cbn [dec]. unfold add_recog. now rewrite M.
Qed.
Lemma wt_add_irrelevant n P rvalid s : mentions n s = false -> forall v, wt rvalid s v -> wt (add_valid n P rvalid) s v.
Proof.
  induction s as [| | |k| |s IH|s IH| |a IHa c IHc|name]; intros M v W; destruct v; cbn [mentions] in M; try exact W.
  - apply wt_slice_iff in W as [L A]. apply wt_slice_iff. split; [exact L | exact (Forall_impl _ (IH M) A)].
  - destruct o; [apply (IH M), W | exact I].
  - apply orb_false_iff in M as [Ma Mc]. destruct W. split; [apply IHa | apply IHc]; assumption.
  - cbn [wt]. unfold add_valid. now rewrite M.
Qed.
