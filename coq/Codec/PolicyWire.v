(* The SpendPolicy wire format (types.SpendPolicy.EncodeTo / DecodeFrom): a version byte, then a tree of
   opcode-tagged nodes; the decoder refuses nesting deeper than maxPolicyDepth = 32. The unlock-conditions
   leaf is the regular UnlockConditions codec. Round trip and decoder canonicity are proved, which makes the
   fragment a sound, complete recogniser for the generic codec. *)
From Coq Require Import String.
From Coq Require Import List NArith Lia Bool PeanoNat.
From Sia Require Import Prim.Tok Codec.Parser Codec.Schema Codec.Canonical.
Import ListNotations.
Local Open Scope N_scope.

Definition norecog (_ : string) (_ : bytes) : option (bytes * bytes) := None.
Definition norvalid (_ : string) (_ : bytes) : Prop := False.
Definition uc_schema : schema := SPair SU64 (SPair (SSlice (SPair (SFixed 16) SBytes)) SU64).
Lemma uc_wf : wf uc_schema. Proof. cbn. lia. Qed.

Inductive pw :=
| PLeaf (op : N) (payload : bytes)     (* 1 above, 2 after: 8 bytes; 3 public key, 4 hash, 6 opaque: 32 bytes *)
| PUc (v : val)                        (* 7: unlock conditions *)
| PThresh (n : N) (of : list pw).      (* 5: n, count, children *)

Definition leaf_len (op : N) : option nat :=
  match op with 1 | 2 => Some 8%nat | 3 | 4 | 6 => Some 32%nat | _ => None end.

Fixpoint enc_pw (p : pw) : bytes :=
  match p with
  | PLeaf op pl => op :: pl
  | PUc v => 7 :: enc uc_schema v
  | PThresh n of => 5 :: n :: N.of_nat (length of) :: flat_map enc_pw of
  end.

Fixpoint dec_list (d : bytes -> option (pw * bytes)) (cnt : nat) (r : bytes) : option (list pw * bytes) :=
  match cnt with
  | O => Some ([], r)
  | S c => match d r with
           | Some (p, r') => match dec_list d c r' with Some (ps, r'') => Some (p :: ps, r'') | None => None end
           | None => None
           end
  end.

(* [fuel] is the number of nesting levels still allowed *)
Fixpoint dec_pw (fuel : nat) (b : bytes) : option (pw * bytes) :=
  match fuel with
  | O => None
  | S f =>
    match b with
    | [] => None
    | op :: r =>
      if op =? 5 then
        match r with
        | n :: k :: r2 => match dec_list (dec_pw f) (N.to_nat k) r2 with Some (ps, r3) => Some (PThresh n ps, r3) | None => None end
        | _ => None
        end
      else if op =? 7 then
        match dec norecog uc_schema r with Some (v, r') => Some (PUc v, r') | None => None end
      else
        match leaf_len op with
        | Some l => match take l r with Some (pl, r') => Some (PLeaf op pl, r') | None => None end
        | None => None
        end
    end
  end.

(* the values that have an encoding the decoder accepts: payload sizes, at most 255 children, nesting within fuel *)
Fixpoint pw_ok (fuel : nat) (p : pw) : Prop :=
  match fuel with
  | O => False
  | S f =>
    match p with
    | PLeaf op pl => leaf_len op = Some (length pl)
    | PUc v => wt norvalid uc_schema v
    | PThresh n of => n < 256 /\ (length of < 256)%nat /\ Forall (pw_ok f) of
    end
  end.

Definition max_policy_levels : nat := 33.   (* depths 0 .. maxPolicyDepth *)

Lemma norecog_ok name : complete (norecog name) (fun x => x) (norvalid name).
Proof. intros b rest []. Qed.
Lemma norvalid_nonempty name b : norvalid name b -> (1 <= length b)%nat.
Proof. intros []. Qed.
Lemma norecog_sound name : sound (norecog name) (fun x => x) (norvalid name) (fun x => x < 256).
Proof. discriminate. Qed.

Lemma leaf_len_not57 op l : leaf_len op = Some l -> (op =? 5) = false /\ (op =? 7) = false.
Proof. intros H; split; [destruct (op =? 5) eqn:E | destruct (op =? 7) eqn:E]; auto; apply N.eqb_eq in E; subst; discriminate. Qed.

Lemma dec_list_rep d cnt : forall r, dec_list d cnt r = rep d cnt r.
Proof. induction cnt as [|c IH]; intros r; [reflexivity|]. cbn [dec_list rep]. destruct (d r) as [[p r']|]; [now rewrite IH | reflexivity]. Qed.

Theorem dec_pw_enc fuel : forall p rest, pw_ok fuel p -> dec_pw fuel (enc_pw p ++ rest) = Some (p, rest).
Proof.
  induction fuel as [|f IH]; intros p rest OK; [destruct OK|]. destruct p as [op pl|v|n of]; cbn [pw_ok] in OK.
  - cbn [enc_pw app dec_pw]. destruct (leaf_len_not57 _ _ OK) as [-> ->]. now rewrite OK, take_app.
  - cbn [enc_pw app dec_pw N.eqb Pos.eqb].
    now rewrite (roundtrip norecog norvalid norecog_ok norvalid_nonempty uc_schema uc_wf v rest OK).
  - destruct OK as (Hn & Hl & F). cbn [enc_pw app dec_pw N.eqb Pos.eqb].
    now rewrite Nat2N.id, dec_list_rep, (rep_complete _ _ _ IH).
Qed.

Theorem dec_pw_canonical fuel : forall b p r, byte_okl b -> dec_pw fuel b = Some (p, r) -> b = enc_pw p ++ r /\ pw_ok fuel p.
Proof.
  induction fuel as [|f IH]; intros b p r O D; [discriminate|]. cbn [dec_pw] in D.
  destruct b as [|op b1]; [discriminate|]. apply Forall_cons_iff in O as [Hop O1].
  destruct (op =? 5) eqn:E5; [|destruct (op =? 7) eqn:E7].
  - apply N.eqb_eq in E5 as ->. destruct b1 as [|n [|k r2]]; try discriminate.
    apply Forall_cons_iff in O1 as [Hn O2]. apply Forall_cons_iff in O2 as [Hk O3]. rewrite dec_list_rep in D.
    destruct (rep (dec_pw f) (N.to_nat k) r2) as [[ps r3]|] eqn:DL; [|discriminate]. inversion D; subst.
    pose proof (rep_length _ _ _ _ _ DL) as L. destruct (rep_sound _ _ _ _ IH _ _ _ _ O3 DL) as [-> F].
    cbn [enc_pw pw_ok app]. rewrite L, N2Nat.id. repeat split; auto. lia.
  - apply N.eqb_eq in E7 as ->. destruct (dec norecog uc_schema b1) as [[v r']|] eqn:DU; [|discriminate]. inversion D; subst.
    destruct (dec_canonical norecog norvalid norecog_sound uc_schema _ _ _ O1 DU) as [-> W]. now split.
  - destruct (leaf_len op) as [l|] eqn:LL; [|discriminate]. destruct (take l b1) as [[pl r']|] eqn:T; [|discriminate]. inversion D; subst.
    apply take_split in T as [-> L]. cbn [enc_pw pw_ok app]. now rewrite L.
Qed.

Definition recog_policy (b : bytes) : option (bytes * bytes) :=
  match b with
  | v :: r => if v =? 1 then match dec_pw max_policy_levels r with Some (p, r') => Some (1 :: enc_pw p, r') | None => None end else None
  | [] => None
  end.
Definition valid_policy (b : bytes) : Prop := exists p, pw_ok max_policy_levels p /\ b = 1 :: enc_pw p.

Lemma recog_policy_ok : complete recog_policy (fun x => x) valid_policy.
Proof. intros b rest (p & OK & ->). cbn [recog_policy app N.eqb Pos.eqb]. now rewrite (dec_pw_enc _ p rest OK). Qed.
Lemma recog_policy_sound : sound recog_policy (fun x => x) valid_policy (fun x => x < 256).
Proof.
  intros b x r O E. destruct b as [|v b1]; [discriminate|]. cbn [recog_policy] in E. destruct (v =? 1) eqn:V; [|discriminate].
  apply N.eqb_eq in V as ->. apply Forall_cons_iff in O as [_ O1].
  destruct (dec_pw max_policy_levels b1) as [[p r']|] eqn:D; [|discriminate]. inversion E; subst.
  destruct (dec_pw_canonical _ _ _ _ O1 D) as [-> OK]. split; [reflexivity|]. exists p. split; [exact OK | reflexivity].
Qed.
Lemma valid_policy_nonempty b : valid_policy b -> (1 <= length b)%nat.
Proof. intros (p & _ & ->). cbn. lia. Qed.

Lemma norecog_extend name : stable (norecog name).
Proof. discriminate. Qed.
Theorem dec_pw_extend fuel : stable (dec_pw fuel).
Proof.
  induction fuel as [|f IH]; intros b p r q D; [discriminate|]. cbn [dec_pw] in D |- *.
  destruct b as [|op b1]; [discriminate|]. cbn [app]. destruct (op =? 5); [|destruct (op =? 7)].
  - destruct b1 as [|n [|k r2]]; try discriminate. cbn [app]. rewrite dec_list_rep in D |- *.
    destruct (rep (dec_pw f) (N.to_nat k) r2) as [[ps r3]|] eqn:DL; [|discriminate]. inversion D; subst.
    now rewrite (rep_stable _ IH _ _ _ _ q DL).
  - destruct (dec norecog uc_schema b1) as [[v r']|] eqn:DU; [|discriminate]. inversion D; subst.
    now rewrite (dec_extend norecog norecog_extend uc_schema _ _ _ q DU).
  - destruct (leaf_len op) as [l|]; [|discriminate]. destruct (take l b1) as [[pl r']|] eqn:T; [|discriminate]. inversion D; subst.
    now rewrite (take_extend _ _ _ _ q T).
Qed.
Lemma recog_policy_extend : stable recog_policy.
Proof.
  intros b x r q E. destruct b as [|v b1]; [discriminate|]. cbn [recog_policy app] in E |- *. destruct (v =? 1); [|discriminate].
  destruct (dec_pw max_policy_levels b1) as [[p r']|] eqn:D; [|discriminate]. inversion E; subst.
  now rewrite (dec_pw_extend _ _ _ _ q D).
Qed.

Fixpoint nest (k : nat) (p : pw) : pw := match k with O => p | S k => PThresh 1 [nest k p] end.
Lemma nest_ok k : forall f p, pw_ok f p -> pw_ok (k + f) (nest k p).
Proof.
  induction k as [|k IH]; intros f p OK; [exact OK|]. cbn [nest pw_ok Nat.add length].
  split; [lia|]. split; [lia|]. constructor; [apply IH, OK | constructor].
Qed.
Example depth_32_accepted : pw_ok max_policy_levels (nest 32 (PLeaf 1 (le_bytes 8 0))).
Proof. apply (nest_ok 32 1). reflexivity. Qed.
Example depth_33_refused : dec_pw max_policy_levels (enc_pw (nest 33 (PLeaf 1 (le_bytes 8 0)))) = None.
Proof. vm_compute. reflexivity. Qed.
