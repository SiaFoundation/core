(* Two irregular constructions built on the generic codec, as hand-modelled fragments for it:
   - a tagged union: a fixed prefix, a one-byte tag, then the layout the tag selects
     (types.V2FileContractResolution: parent element, 0 renewal / 1 storage proof / 2 expiration);
   - a versioned, bit-masked record: a version byte, a u64 field mask, then the fields whose bit is set, in bit order
     (types.V2Transaction). The encoder sets a bit exactly when the field is not its default (empty list, empty
     bytes, zero currency; a pointer field when non-nil); the decoder reads whatever the mask announces, ignores
     bits beyond the last field, and so accepts non-canonical inputs, which re-encode canonically. *)
From Coq Require Import String.
From Coq Require Import List NArith Lia Bool PeanoNat.
From Sia Require Import Prim.Tok Codec.Parser Codec.Schema Codec.Canonical.
Import ListNotations.
Local Open Scope N_scope.

Section Tagged.
Variable recog : string -> bytes -> option (bytes * bytes).
Variable rvalid : string -> bytes -> Prop.
Hypothesis recog_ok : forall name b rest, rvalid name b -> recog name (b ++ rest) = Some (b, rest).
Hypothesis rvalid_nonempty : forall name b, rvalid name b -> (1 <= length b)%nat.
Hypothesis recog_extend : forall name b x r q, recog name b = Some (x, r) -> recog name (b ++ q) = Some (x, r ++ q).

Section Union.
Variable pre : schema.
Variable cases : list schema.
Hypothesis pre_wf : wf pre.
Hypothesis cases_wf : Forall wf cases.

Definition enc_union (p : val) (t : nat) (x : val) : bytes := enc pre p ++ N.of_nat t :: enc (nth t cases SUnit) x.
Definition valid_union (b : bytes) : Prop :=
  exists p t x, wt rvalid pre p /\ (t < length cases)%nat /\ wt rvalid (nth t cases SUnit) x /\ b = enc_union p t x.
Definition recog_union (b : bytes) : option (bytes * bytes) :=
  match dec recog pre b with
  | Some (p, t :: r1) =>
    match nth_error cases (N.to_nat t) with
    | Some s => match dec recog s r1 with Some (x, r2) => Some (enc pre p ++ t :: enc s x, r2) | None => None end
    | None => None
    end
  | _ => None
  end.

Lemma recog_union_ok : complete recog_union (fun x => x) valid_union.
Proof.
  intros b rest (p & t & x & Wp & Lt & Wx & ->). unfold recog_union, enc_union. rewrite <- app_assoc. cbn [app].
  rewrite (roundtrip recog rvalid recog_ok rvalid_nonempty pre pre_wf p _ Wp). rewrite Nat2N.id.
  rewrite (nth_error_nth' cases SUnit Lt).
  assert (Ws : wf (nth t cases SUnit)) by (apply (proj1 (Forall_forall _ _) cases_wf), nth_In; exact Lt).
  rewrite (roundtrip recog rvalid recog_ok rvalid_nonempty _ Ws x rest Wx). reflexivity.
Qed.
Lemma valid_union_nonempty b : valid_union b -> (1 <= length b)%nat.
Proof. intros (p & t & x & _ & _ & _ & ->). unfold enc_union. rewrite app_length. cbn [length]. lia. Qed.
Lemma recog_union_inv b x r : recog_union b = Some (x, r) ->
  exists p t b1 s y, dec recog pre b = Some (p, t :: b1) /\ nth_error cases (N.to_nat t) = Some s /\
                     dec recog s b1 = Some (y, r) /\ x = enc pre p ++ t :: enc s y.
Proof.
  unfold recog_union. destruct (dec recog pre b) as [[p [|t b1]]|]; try discriminate.
  destruct (nth_error cases (N.to_nat t)) as [s|] eqn:NE; [|discriminate].
  destruct (dec recog s b1) as [[y r']|] eqn:D; [|discriminate]. intros E; inversion E; subst. now exists p, t, b1, s, y.
Qed.
Lemma recog_union_extend : stable recog_union.
Proof.
  intros b x r q E. apply recog_union_inv in E as (p & t & b1 & s & y & D & NE & D1 & ->). unfold recog_union.
  rewrite (dec_extend recog recog_extend pre _ _ _ q D). cbn [app].
  now rewrite NE, (dec_extend recog recog_extend s _ _ _ q D1).
Qed.
Hypothesis recog_sound : forall name b x r, byte_okl b -> recog name b = Some (x, r) -> b = x ++ r /\ rvalid name x.
Lemma recog_union_sound : sound recog_union (fun x => x) valid_union (fun x => x < 256).
Proof.
  intros b x r O E. apply recog_union_inv in E as (p & t & b1 & s & y & D & NE & D1 & ->).
  destruct (dec_canonical recog rvalid recog_sound pre _ _ _ O D) as [-> Wp].
  apply Forall_app in O as [_ O1]. apply Forall_cons_iff in O1 as [_ O2].
  destruct (dec_canonical recog rvalid recog_sound s _ _ _ O2 D1) as [-> Wy].
  split; [now rewrite <- app_assoc|]. exists p, (N.to_nat t), y. unfold enc_union.
  rewrite (nth_error_nth _ _ _ NE), N2Nat.id. repeat split; auto.
  apply nth_error_Some. now rewrite NE.
Qed.
End Union.

Section Masked.
Variable ver : N.
(* each field: its layout and the test for "default" (not transmitted) *)
Variable fields : list (schema * (val -> bool)).
Hypothesis fields_wf : Forall (fun f => wf (fst f)) fields.

Fixpoint body (fs : list (schema * (val -> bool))) (os : list (option val)) : bytes :=
  match fs, os with
  | f :: fs', o :: os' => (match o with Some v => enc (fst f) v | None => [] end) ++ body fs' os'
  | _, _ => []
  end.
Fixpoint mask (os : list (option val)) : N :=
  match os with [] => 0 | o :: t => (match o with Some _ => 1 | None => 0 end) + 2 * mask t end.
Definition enc_masked (os : list (option val)) : bytes := ver :: le_bytes 8 (mask os) ++ body fields os.

Fixpoint wt_fields (fs : list (schema * (val -> bool))) (os : list (option val)) : Prop :=
  match fs, os with
  | [], [] => True
  | f :: fs', o :: os' => (match o with Some v => wt rvalid (fst f) v /\ snd f v = false | None => True end) /\ wt_fields fs' os'
  | _, _ => False
  end.
Definition valid_masked (b : bytes) : Prop := (length fields <= 64)%nat /\ exists os, wt_fields fields os /\ b = enc_masked os.

Fixpoint dec_fields (fs : list (schema * (val -> bool))) (m : N) (b : bytes) : option (list (option val) * bytes) :=
  match fs with
  | [] => Some ([], b)
  | f :: fs' =>
    if N.odd m then
      match dec recog (fst f) b with
      | Some (v, r) => match dec_fields fs' (m / 2) r with Some (vs, r') => Some (Some v :: vs, r') | None => None end
      | None => None
      end
    else match dec_fields fs' (m / 2) b with Some (vs, r') => Some (None :: vs, r') | None => None end
  end.
Definition dec_masked (b : bytes) : option (list (option val) * bytes) :=
  match b with
  | v :: r => if v =? ver then match take 8 r with Some (h, r1) => dec_fields fields (le_val h) r1 | None => None end else None
  | [] => None
  end.
(* what the encoder does to a decoded record: default fields are dropped *)
Fixpoint normalise (fs : list (schema * (val -> bool))) (os : list (option val)) : list (option val) :=
  match fs, os with
  | f :: fs', o :: os' => (match o with Some v => if snd f v then None else Some v | None => None end) :: normalise fs' os'
  | _, _ => []
  end.
Definition recog_masked (b : bytes) : option (bytes * bytes) :=
  match dec_masked b with Some (os, r) => Some (enc_masked (normalise fields os), r) | None => None end.

Lemma mask_odd (o : option val) t : N.odd ((match o with Some _ => 1 | None => 0 end : N) + 2 * mask t) = match o with Some _ => true | None => false end.
Proof. destruct o; [rewrite N.odd_add_mul_2 | rewrite N.add_0_l, N.odd_mul, N.odd_2]; reflexivity. Qed.
Lemma mask_half (o : option val) t : ((match o with Some _ => 1 | None => 0 end : N) + 2 * mask t) / 2 = mask t.
Proof. destruct o; now rewrite (N.mul_comm 2), N.div_add. Qed.
Lemma mask_bound os : mask os < 2 ^ N.of_nat (length os).
Proof.
  induction os as [|o os IH]; [cbn; lia|]. cbn [mask length]. rewrite Nat2N.inj_succ, N.pow_succ_r'. destruct o; lia.
Qed.
Lemma wt_fields_length fs : forall os, wt_fields fs os -> length os = length fs.
Proof. induction fs as [|f fs IH]; intros [|o os] W; cbn in *; try tauto. f_equal. apply IH. tauto. Qed.

Lemma dec_fields_ok fs : Forall (fun f => wf (fst f)) fs -> forall os rest, wt_fields fs os ->
  dec_fields fs (mask os) (body fs os ++ rest) = Some (os, rest) /\ normalise fs os = os.
Proof.
  induction 1 as [|f fs Wf _ IH]; intros [|o os] rest W; cbn [wt_fields] in W; try (exfalso; exact W).
  - split; reflexivity.
  - destruct W as [Wo Wr]. cbn [dec_fields mask body normalise]. rewrite mask_odd, mask_half.
    destruct (IH os rest Wr) as [D N]. destruct o as [v|].
    + destruct Wo as [Wv Dv]. rewrite <- app_assoc. rewrite (roundtrip recog rvalid recog_ok rvalid_nonempty _ Wf v _ Wv).
      rewrite D, N, Dv. split; reflexivity.
    + cbn [app]. rewrite D, N. split; reflexivity.
Qed.
Lemma recog_masked_ok : complete recog_masked (fun x => x) valid_masked.
Proof using All.  (* keeps [recog_extend], which the proof does not use, among the arguments: Props/C11.v passes all three hypotheses *)
  intros b rest (L64 & os & W & ->). unfold recog_masked, dec_masked, enc_masked. cbn [app]. rewrite N.eqb_refl.
  rewrite <- app_assoc, take_app by apply le_bytes_length.
  assert (B : mask os < 256 ^ N.of_nat 8).
  { pose proof (mask_bound os) as B. rewrite (wt_fields_length _ _ W) in B.
    apply N.lt_le_trans with (1 := B). change (256 ^ N.of_nat 8) with (2 ^ 64). apply N.pow_le_mono_r; lia. }
  rewrite (le_val_bytes 8 _ B). destruct (dec_fields_ok fields fields_wf os rest W) as [-> ->]. reflexivity.
Qed.
Lemma valid_masked_nonempty b : valid_masked b -> (1 <= length b)%nat.
Proof. intros (_ & os & _ & ->). unfold enc_masked. cbn [length]. lia. Qed.

Lemma dec_fields_extend fs : forall m, stable (dec_fields fs m).
Proof.
  induction fs as [|f fs IH]; intros m b os r q E; cbn [dec_fields] in E |- *.
  - inversion E; subst. reflexivity.
  - destruct (N.odd m).
    + destruct (dec recog (fst f) b) as [[v r1]|] eqn:D; [|discriminate].
      destruct (dec_fields fs (m / 2) r1) as [[vs r2]|] eqn:D2; [|discriminate]. inversion E; subst.
      rewrite (dec_extend recog recog_extend _ _ _ _ q D), (IH _ _ _ _ q D2). reflexivity.
    + destruct (dec_fields fs (m / 2) b) as [[vs r2]|] eqn:D2; [|discriminate]. inversion E; subst.
      rewrite (IH _ _ _ _ q D2). reflexivity.
Qed.
Lemma recog_masked_extend : stable recog_masked.
Proof.
  unfold recog_masked, dec_masked. intros b x r q E. destruct b as [|v b1]; [discriminate|]. cbn [app].
  destruct (v =? ver); [|discriminate]. destruct (take 8 b1) as [[h r1]|] eqn:T; [|discriminate].
  rewrite (take_extend _ _ _ _ q T). destruct (dec_fields fields (le_val h) r1) as [[os r2]|] eqn:D; [|discriminate].
  inversion E; subst. rewrite (dec_fields_extend _ _ _ _ _ q D). reflexivity.
Qed.
End Masked.
End Tagged.
