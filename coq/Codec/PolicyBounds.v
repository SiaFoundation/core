From Coq Require Import String.
From Coq Require Import List NArith Lia Bool PeanoNat.
From Sia Require Import Prim.Tok Codec.Schema Codec.Canonical Codec.PolicyWire.
Import ListNotations.

(* the deepest nesting of any node (the root is at depth 0) and the node count of a decoded policy *)
Fixpoint pw_depth (p : pw) : nat :=
  match p with
  | PThresh _ [] => 0%nat
  | PThresh _ of => S (fold_right (fun c a => Nat.max (pw_depth c) a) 0%nat of)
  | _ => 0%nat
  end.
Fixpoint pw_nodes (p : pw) : nat :=
  match p with PThresh _ of => S (fold_right (fun c a => (pw_nodes c + a)%nat) 0%nat of) | _ => 1%nat end.

Lemma pw_ok_depth fuel : forall p, pw_ok fuel p -> (pw_depth p < fuel)%nat.
Proof.
  induction fuel as [|f IH]; intros p OK; [destruct OK|]. destruct p as [op pl|v|n of]; cbn [pw_depth]; try lia.
  cbn [pw_ok] in OK. destruct OK as (_ & _ & F). destruct of as [|c0 r0]; [lia|].
  assert (B : forall l, Forall (pw_ok f) l -> (fold_right (fun c a => Nat.max (pw_depth c) a) 0 l <= pred f)%nat).
  { induction 1 as [|c r Hc _ IHr]; cbn [fold_right]; [lia | pose proof (IH c Hc); lia]. }
  specialize (B _ F). apply Forall_inv, IH in F. lia.
Qed.

(* every policy the decoder returns nests at most 32 thresholds deep (no unbounded recursion on hostile input) ... *)
Theorem decoded_policy_depth b p r : byte_okl b -> dec_pw max_policy_levels b = Some (p, r) -> (pw_depth p <= 32)%nat.
Proof. intros O D. destruct (dec_pw_canonical max_policy_levels b p r O D) as [_ OK]. pose proof (pw_ok_depth _ _ OK). unfold max_policy_levels in *. lia. Qed.

Lemma enc_pw_nodes : forall p, (pw_nodes p <= length (enc_pw p))%nat.
Proof.
  fix F 1. intros [op pl|v|n of]; cbn [pw_nodes enc_pw length]; try lia.
  assert (B : (fold_right (fun c a => (pw_nodes c + a)%nat) 0%nat of <= length (flat_map enc_pw of))%nat).
  { revert of. fix G 1. intros [|c r]; cbn [fold_right flat_map]; [lia|]. rewrite app_length. pose proof (F c). pose proof (G r). lia. }
  lia.
Qed.
(* ... and has no more nodes than the input has bytes (no amplification) *)
Theorem decoded_policy_size b p r : byte_okl b -> dec_pw max_policy_levels b = Some (p, r) -> (pw_nodes p + length r <= length b)%nat.
Proof.
  intros O D. destruct (dec_pw_canonical max_policy_levels b p r O D) as [-> _]. rewrite app_length. pose proof (enc_pw_nodes p). lia.
Qed.
