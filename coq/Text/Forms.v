(* PublicKey ("ed25519:" + hex) and ChainIndex ("<height>::<id hex>") of types/types.go as text: the parser and the
   renderer of each, that parsing gives back what was rendered, and that an accepted key string is the prefix
   followed by the hex of the key up to the case of its letters. *)
From Coq Require Import List NArith Lia Bool PeanoNat ZifyN ZifyNat ZifyBool.
From Sia Require Import Prim.Tok Text.Hex Text.Currency Text.CurrencyProofs.
Import ListNotations.
Local Open Scope N_scope.

Definition colon : N := 58.
(* bytes.IndexByte *)
Fixpoint index_byte (c : N) (s : bytes) : option nat :=
  match s with [] => None | x :: r => if x =? c then Some 0%nat else option_map S (index_byte c r) end.
Lemma index_byte_app c a r : Forall (fun x => x <> c) a -> index_byte c (a ++ c :: r) = Some (length a).
Proof.
  induction 1 as [|x a Hx _ IH]; cbn [app index_byte length]; [rewrite N.eqb_refl; reflexivity|].
  destruct (N.eqb_spec x c); [contradiction|]. rewrite IH. reflexivity.
Qed.

Lemma index_byte_spec c s i : index_byte c s = Some i -> exists a r, s = a ++ c :: r /\ length a = i.
Proof.
  revert i. induction s as [|x s IH]; intros i; cbn [index_byte]; [discriminate|].
  destruct (N.eqb_spec x c) as [->|_].
  - intros [= <-]. exists [], s. auto.
  - destruct (index_byte c s) as [j|]; [|discriminate]. intros [= <-].
    destruct (IH j eq_refl) as (a & r & -> & <-). exists (x :: a), r. auto.
Qed.

Definition ed_prefix : bytes := [101; 100; 50; 53; 53; 49; 57].      (* "ed25519" *)
Definition pk_render (pk : bytes) : bytes := ed_prefix ++ colon :: hex_encode pk.
Definition pk_parse (s : bytes) : option bytes :=
  match index_byte colon s with
  | None => None
  | Some i => if beqb (firstn i s) ed_prefix then unmarshal_hex 32 (skipn (S i) s) else None
  end.
Theorem pk_roundtrip pk : byte_ok pk -> length pk = 32%nat -> pk_parse (pk_render pk) = Some pk.
Proof.
  intros Hb Hl. unfold pk_parse, pk_render.
  rewrite (index_byte_app colon ed_prefix (hex_encode pk)) by (repeat constructor; discriminate).
  destruct (split_at_sep ed_prefix colon (hex_encode pk)) as [-> ->]. destruct (beqb_spec ed_prefix ed_prefix); [|contradiction].
  apply unmarshal_hex_roundtrip; assumption.
Qed.
Theorem pk_parse_canonical s pk : pk_parse s = Some pk -> map lower (skipn 8 s) = hex_encode pk /\ firstn 8 s = ed_prefix ++ [colon] /\ length pk = 32%nat.
Proof.
  unfold pk_parse. destruct (index_byte colon s) as [i|] eqn:I; [|discriminate].
  destruct (index_byte_spec _ _ _ I) as (a & r & -> & <-). destruct (split_at_sep a colon r) as [-> ->].
  destruct (beqb_spec a ed_prefix) as [->|]; [|discriminate]. intros U.
  destruct (unmarshal_hex_exact 32 _ _ U) as (A & _ & C). auto.
Qed.

(* strconv.ParseUint(s, 10, 64): digits only, at least one, value below 2^64 *)
Definition parse_uint64 (s : bytes) : option N :=
  match s with
  | [] => None
  | _ => if all_digits s then (if dec_val s <? 2 ^ 64 then Some (dec_val s) else None) else None
  end.
(* bytes.Split(b, "::") yielding exactly two parts: one separator, found left to right *)
Definition starts_colon (r : bytes) : bool := match r with y :: _ => y =? colon | [] => false end.
Fixpoint split2 (s : bytes) : option (bytes * bytes) :=
  match s with
  | [] => None
  | x :: r => if (x =? colon) && starts_colon r then Some ([], tl r) else option_map (fun p => (x :: fst p, snd p)) (split2 r)
  end.
Fixpoint has_sep (s : bytes) : bool :=
  match s with x :: r => ((x =? colon) && starts_colon r) || has_sep r | [] => false end.
Definition ci_render (h : N) (id : bytes) : bytes := digits h ++ colon :: colon :: hex_encode id.
Definition ci_parse (s : bytes) : option (N * bytes) :=
  match split2 s with
  | None => None
  | Some (a, b) =>
    if has_sep b then None
    else match parse_uint64 a with
         | None => None
         | Some h => if (length b <=? 64)%nat then
                       match hex_decode b with Some id => if (length id <? 32)%nat then None else Some (h, id) | None => None end
                     else None
         end
  end.

Lemma split2_app a r : Forall (fun x => x <> colon) a -> split2 (a ++ colon :: colon :: r) = Some (a, r).
Proof.
  induction 1 as [|x a Hx _ IH]; cbn [app split2]; [reflexivity|].
  destruct (N.eqb_spec x colon); [contradiction|]. cbn [andb]. rewrite IH. reflexivity.
Qed.
Lemma no_sep s : Forall (fun x => x <> colon) s -> has_sep s = false.
Proof.
  induction 1 as [|x r Hx _ IH]; [reflexivity|]. cbn [has_sep]. destruct (N.eqb_spec x colon); [contradiction | exact IH].
Qed.
Lemma hex_no_colon b : byte_ok b -> Forall (fun x => x <> colon) (hex_encode b).
Proof. intros O. eapply Forall_impl; [|exact (hex_encode_chars b O)]. cbv beta. unfold colon. lia. Qed.
Lemma digs_no_colon s : digs s -> Forall (fun x => x <> colon) s.
Proof. intros D. eapply Forall_impl; [|exact D]. cbv beta. unfold is_digit, colon. lia. Qed.

Theorem ci_roundtrip h id : h < 2 ^ 64 -> byte_ok id -> length id = 32%nat -> ci_parse (ci_render h id) = Some (h, id).
Proof.
  intros Hh Hb Hl. unfold ci_parse, ci_render.
  assert (HM : h <= MAXCUR) by (unfold MAXCUR; lia).
  destruct (digits_spec h HM) as (Dg & Dv & Dn & _).
  rewrite split2_app by (apply digs_no_colon; exact Dg).
  rewrite (no_sep _ (hex_no_colon id Hb)).
  assert (PU : parse_uint64 (digits h) = Some h).
  { unfold parse_uint64. destruct (digits h) as [|d0 dr] eqn:Ed; [contradiction|].
    rewrite (digs_all _ Dg), Dv. destruct (N.ltb_spec h (2 ^ 64)); [reflexivity | lia]. }
  rewrite PU.
  rewrite hex_encode_length, Hl. cbn [Nat.leb Nat.mul]. rewrite (hex_roundtrip id Hb), Hl. reflexivity.
Qed.
