(* Hexadecimal text forms (types/types.go: hex.EncodeToString / unmarshalHex) and the checksummed address string.
   Strings are lists of byte codes. *)
From Coq Require Import List NArith Lia Bool PeanoNat.
From Sia Require Import Prim.Tok.
Import ListNotations.
Local Open Scope N_scope.

Definition hexdigit (d : N) : N := if d <? 10 then 48 + d else 87 + d.
Definition hexval (c : N) : option N :=
  if (48 <=? c) && (c <=? 57) then Some (c - 48)
  else if (97 <=? c) && (c <=? 102) then Some (c - 87)
  else if (65 <=? c) && (c <=? 70) then Some (c - 55)
  else None.
Definition lower (c : N) : N := if (65 <=? c) && (c <=? 90) then c + 32 else c.

Definition hex_encode (b : bytes) : bytes := flat_map (fun x => [hexdigit (x / 16); hexdigit (x mod 16)]) b.
Fixpoint hex_decode (s : bytes) : option bytes :=
  match s with
  | [] => Some []
  | [_] => None
  | c1 :: c2 :: r =>
    match hexval c1, hexval c2, hex_decode r with
    | Some h, Some l, Some t => Some (h * 16 + l :: t)
    | _, _, _ => None
    end
  end.

Definition byte_ok (b : bytes) : Prop := Forall (fun x => x < 256) b.

Lemma between_spec a b c : reflect (a <= c <= b) ((a <=? c) && (c <=? b)).
Proof. apply iff_reflect. rewrite andb_true_iff, !N.leb_le. reflexivity. Qed.

Lemma hexval_digit d : d < 16 -> hexval (hexdigit d) = Some d.
Proof.
  intros L. unfold hexdigit, hexval. destruct (N.ltb_spec d 10).
  - destruct (between_spec 48 57 (48 + d)); [f_equal; lia | lia].
  - destruct (between_spec 48 57 (87 + d)); [lia|]. destruct (between_spec 97 102 (87 + d)); [f_equal; lia | lia].
Qed.
Lemma hexval_lower c v : hexval c = Some v -> hexdigit v = lower c /\ v < 16.
Proof.
  unfold hexval, hexdigit, lower.
  destruct (between_spec 48 57 c); [|destruct (between_spec 97 102 c); [|destruct (between_spec 65 70 c)]]; intros [= <-].
  - destruct (N.ltb_spec (c - 48) 10), (between_spec 65 90 c); lia.
  - destruct (N.ltb_spec (c - 87) 10), (between_spec 65 90 c); lia.
  - destruct (N.ltb_spec (c - 55) 10), (between_spec 65 90 c); lia.
Qed.

Lemma hex_encode_cons x b : hex_encode (x :: b) = hexdigit (x / 16) :: hexdigit (x mod 16) :: hex_encode b.
Proof. reflexivity. Qed.
Lemma nibbles x : x < 256 -> x / 16 < 16 /\ x mod 16 < 16 /\ x / 16 * 16 + x mod 16 = x.
Proof.
  intros L. split; [apply N.div_lt_upper_bound; [discriminate | exact L] | split; [apply N.mod_lt; discriminate|]].
  rewrite N.mul_comm. symmetry. apply N.div_mod. discriminate.
Qed.
Lemma nibbles_join h l : h < 16 -> l < 16 -> (h * 16 + l) / 16 = h /\ (h * 16 + l) mod 16 = l /\ h * 16 + l < 256.
Proof.
  intros H L. rewrite N.mul_comm.
  split; [symmetry; apply (N.div_unique _ 16 h l L); reflexivity | split; [symmetry; apply (N.mod_unique _ 16 h l L); reflexivity | lia]].
Qed.

Lemma decode_cons c1 c2 r : hex_decode (c1 :: c2 :: r) =
  match hexval c1, hexval c2, hex_decode r with Some h, Some l, Some t => Some (h * 16 + l :: t) | _, _, _ => None end.
Proof. reflexivity. Qed.

Theorem hex_roundtrip b : byte_ok b -> hex_decode (hex_encode b) = Some b.
Proof.
  induction 1 as [|x b Hx _ IH]; [reflexivity|]. destruct (nibbles x Hx) as (H & L & E).
  rewrite hex_encode_cons, decode_cons, !hexval_digit, IH, E by assumption. reflexivity.
Qed.

Lemma hex_encode_length b : length (hex_encode b) = (2 * length b)%nat.
Proof. induction b as [|x b IH]; [reflexivity|]. rewrite hex_encode_cons. cbn [length]. lia. Qed.
Lemma hex_encode_app a b : hex_encode (a ++ b) = hex_encode a ++ hex_encode b.
Proof. apply flat_map_app. Qed.
Lemma hex_encode_inj a b : byte_ok a -> byte_ok b -> hex_encode a = hex_encode b -> a = b.
Proof.
  intros A B E. assert (Some a = Some b) by (rewrite <- (hex_roundtrip a A), <- (hex_roundtrip b B), E; reflexivity). congruence.
Qed.

Lemma hex_encode_chars b : byte_ok b -> Forall (fun c => 48 <= c <= 57 \/ 97 <= c <= 102) (hex_encode b).
Proof.
  assert (D : forall d, d < 16 -> 48 <= hexdigit d <= 57 \/ 97 <= hexdigit d <= 102)
    by (intros d L; unfold hexdigit; destruct (N.ltb_spec d 10); lia).
  induction 1 as [|x b Hx _ IH]; [constructor|]. rewrite hex_encode_cons. destruct (nibbles x Hx) as (? & ? & _). repeat apply Forall_cons; auto.
Qed.
Lemma lower_canonical b : byte_ok b -> map lower (hex_encode b) = hex_encode b.
Proof.
  intros O. rewrite <- map_id. apply map_ext_Forall. eapply Forall_impl; [|exact (hex_encode_chars b O)].
  cbv beta. unfold lower. intros c Hc. destruct (between_spec 65 90 c); lia.
Qed.

Lemma pairs_ind {A} (P : list A -> Prop) : P [] -> (forall x, P [x]) -> (forall x y l, P l -> P (x :: y :: l)) -> forall l, P l.
Proof. intros H0 H1 H2. fix go 1. intros [|x [|y l]]; [exact H0 | apply H1 | apply H2, go]. Qed.

Theorem hex_decode_canonical : forall s b, hex_decode s = Some b -> map lower s = hex_encode b /\ length s = (2 * length b)%nat /\ byte_ok b.
Proof.
  induction s as [|c|c1 c2 r IH] using pairs_ind; intros b D.
  - injection D as <-. repeat split; constructor.
  - discriminate D.
  - rewrite decode_cons in D.
    destruct (hexval c1) as [h|] eqn:H1; [|discriminate]. destruct (hexval c2) as [l|] eqn:H2; [|discriminate].
    destruct (hex_decode r) as [t|]; [|discriminate]. injection D as <-.
    destruct (IH t eq_refl) as (M & L & O).
    destruct (hexval_lower _ _ H1) as [E1 B1]. destruct (hexval_lower _ _ H2) as [E2 B2].
    destruct (nibbles_join h l B1 B2) as (Q & R & B).
    rewrite hex_encode_cons, Q, R, E1, E2. cbn [map length]. rewrite M, L.
    split; [reflexivity | split; [clear; lia | constructor; assumption]].
Qed.

(* unmarshalHex into a k-byte identifier: exactly 2k hex characters *)
Definition unmarshal_hex (k : nat) (s : bytes) : option bytes :=
  if (2 * k <? length s)%nat then None
  else match hex_decode s with
       | Some b => if (length b <? k)%nat then None else Some b
       | None => None
       end.
Theorem unmarshal_hex_exact k s b : unmarshal_hex k s = Some b ->
  length b = k /\ length s = (2 * k)%nat /\ map lower s = hex_encode b.
Proof.
  unfold unmarshal_hex. destruct (Nat.ltb_spec (2 * k) (length s)) as [A|A]; [discriminate|].
  destruct (hex_decode s) as [b'|] eqn:D; [|discriminate].
  destruct (Nat.ltb_spec (length b') k) as [B|B]; [discriminate|]. intros [= <-].
  destruct (hex_decode_canonical _ _ D) as (M & L & _). repeat split; auto; lia.
Qed.
Theorem unmarshal_hex_roundtrip k b : byte_ok b -> length b = k -> unmarshal_hex k (hex_encode b) = Some b.
Proof.
  intros O L. unfold unmarshal_hex. rewrite (hex_roundtrip b O), hex_encode_length, L.
  rewrite !Nat.ltb_irrefl. reflexivity.
Qed.

Lemma firstn_skipn_exact {A} (a c : list A) n : length a = n -> firstn n (a ++ c) = a /\ skipn n (a ++ c) = c.
Proof. intros <-. rewrite firstn_app, skipn_app, Nat.sub_diag, firstn_all, skipn_all. cbn [firstn skipn app]. rewrite app_nil_r. auto. Qed.

Lemma split_at_sep {A} (a : list A) x c : firstn (length a) (a ++ x :: c) = a /\ skipn (S (length a)) (a ++ x :: c) = c.
Proof. induction a as [|y a [F K]]; split; [reflexivity | reflexivity | exact (f_equal (cons y) F) | exact K]. Qed.

Section Address.
Variable H : bytes -> bytes.           (* BLAKE2b-256 *)
Definition checksum (a : bytes) : bytes := firstn 6 (H a).
Definition addr_render (a : bytes) : bytes := hex_encode (a ++ checksum a).
Definition beqb (a b : bytes) : bool := if list_eq_dec N.eq_dec a b then true else false.
Lemma beqb_spec a b : reflect (a = b) (beqb a b).
Proof. unfold beqb. destruct (list_eq_dec N.eq_dec a b); constructor; assumption. Qed.
Definition addr_parse (s : bytes) : option bytes :=
  if negb (length s =? 76)%nat then None
  else match hex_decode s with
       | Some wc => let a := firstn 32 wc in
                    if beqb (checksum a) (skipn 32 wc) then Some a else None
       | None => None
       end.

Definition H_ok : Prop := forall x, length (H x) = 32%nat /\ byte_ok (H x).
Definition ChecksumCollision : Prop := exists a a', a <> a' /\ checksum a = checksum a'.

Lemma checksum_ok a : H_ok -> length (checksum a) = 6%nat /\ byte_ok (checksum a).
Proof.
  intros HO. destruct (HO a) as [HL HB]. unfold checksum. rewrite firstn_length, HL. split; [reflexivity|].
  rewrite <- (firstn_skipn 6 (H a)) in HB. apply Forall_app in HB. apply HB.
Qed.

Theorem addr_roundtrip a : H_ok -> byte_ok a -> length a = 32%nat -> addr_parse (addr_render a) = Some a.
Proof.
  intros HO O L. unfold addr_parse, addr_render. destruct (checksum_ok a HO) as [CL CB].
  rewrite hex_encode_length, app_length, L, CL. cbn [Nat.eqb negb Nat.mul Nat.add].
  rewrite hex_roundtrip by (apply Forall_app; split; assumption).
  destruct (firstn_skipn_exact a (checksum a) 32 L) as [-> ->].
  destruct (beqb_spec (checksum a) (checksum a)); [reflexivity | congruence].
Qed.

Lemma addr_parse_inv s a : addr_parse s = Some a -> hex_decode s = Some (a ++ checksum a) /\ length a = 32%nat.
Proof.
  unfold addr_parse. destruct (length s =? 76)%nat eqn:L; cbn [negb]; [|discriminate].
  destruct (hex_decode s) as [wc|] eqn:D; [|discriminate].
  destruct (beqb_spec (checksum (firstn 32 wc)) (skipn 32 wc)) as [E|]; [|discriminate].
  intros Q. replace a with (firstn 32 wc) by congruence. rewrite E, firstn_skipn, firstn_length. split; [reflexivity|].
  destruct (hex_decode_canonical _ _ D) as (_ & Ls & _). apply Nat.eqb_eq in L. lia.
Qed.

Theorem addr_parse_canonical s a : addr_parse s = Some a -> map lower s = addr_render a /\ length a = 32%nat.
Proof.
  intros P. destruct (addr_parse_inv s a P) as [D L]. destruct (hex_decode_canonical _ _ D) as (M & _). exact (conj M L).
Qed.

Fixpoint set_at {A} (i : nat) (c : A) (s : list A) : list A :=
  match s with
  | [] => []
  | x :: r => match i with O => c :: r | S i => x :: set_at i c r end
  end.
Lemma firstn_set_at {A} n i (c : A) s : (n <= i)%nat -> firstn n (set_at i c s) = firstn n s.
Proof.
  revert n i. induction s as [|x r IH]; intros n i L; [destruct i; reflexivity|].
  destruct i; [assert (n = 0%nat) by lia; subst; reflexivity|].
  destruct n; [reflexivity|]. cbn [set_at firstn]. rewrite IH by lia. reflexivity.
Qed.
Lemma skipn_set_at {A} n i (c : A) s : (i < n)%nat -> skipn n (set_at i c s) = skipn n s.
Proof.
  revert n i. induction s as [|x r IH]; intros n i L; [destruct i; reflexivity|].
  destruct n; [lia|]. destruct i; [reflexivity|]. cbn [set_at skipn]. apply IH. lia.
Qed.
Lemma set_at_length {A} i (c : A) s : length (set_at i c s) = length s.
Proof. revert i. induction s as [|x r IH]; intros i; [destruct i; reflexivity|]. destruct i; cbn [set_at length]; [reflexivity|]. rewrite IH. reflexivity. Qed.

(* the first 64 characters of a rendering are the address, the last 12 its checksum *)
Theorem addr_altered a s' a' : H_ok -> byte_ok a -> length a = 32%nat ->
  (firstn 64 s' = firstn 64 (addr_render a) \/ skipn 64 s' = skipn 64 (addr_render a)) ->
  addr_parse s' = Some a' -> a' = a \/ ChecksumCollision.
Proof.
  intros HO O L Keep P.
  destruct (list_eq_dec N.eq_dec a' a) as [|Ne]; [left; assumption | right]. exists a', a. split; [exact Ne|].
  destruct (addr_parse_inv _ _ P) as [D L']. destruct (hex_decode_canonical _ _ D) as (M & _ & O').
  apply Forall_app in O'. destruct O' as [Oa' Oc']. destruct (checksum_ok a HO) as [_ Oc].
  (* both renderings, in lower case, split at character 64 into the address part and the checksum part *)
  assert (R : map lower (addr_render a) = hex_encode a ++ hex_encode (checksum a))
    by (unfold addr_render; rewrite lower_canonical, hex_encode_app by (apply Forall_app; split; assumption); reflexivity).
  rewrite hex_encode_app in M.
  destruct (firstn_skipn_exact (hex_encode a) (hex_encode (checksum a)) 64) as [F S]; [rewrite hex_encode_length, L; reflexivity|].
  destruct (firstn_skipn_exact (hex_encode a') (hex_encode (checksum a')) 64) as [F' S']; [rewrite hex_encode_length, L'; reflexivity|].
  destruct Keep as [K|K]; apply (f_equal (map lower)) in K.
  - exfalso. apply Ne. apply hex_encode_inj; auto. rewrite <- !firstn_map, M, R, F, F' in K. exact K.
  - apply hex_encode_inj; auto. rewrite <- !skipn_map, M, R, S, S' in K. exact K.
Qed.

Corollary addr_single_char a i c a' : H_ok -> byte_ok a -> length a = 32%nat ->
  addr_parse (set_at i c (addr_render a)) = Some a' -> a' = a \/ ChecksumCollision.
Proof.
  intros HO O L P. apply (addr_altered a (set_at i c (addr_render a)) a' HO O L); [|exact P].
  destruct (Nat.le_gt_cases 64 i) as [G|G].
  - left. apply firstn_set_at. exact G.
  - right. apply skipn_set_at. exact G.
Qed.
End Address.
