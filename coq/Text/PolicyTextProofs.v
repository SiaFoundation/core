From Coq Require Import List NArith ZArith Lia Bool PeanoNat ZifyN ZifyNat ZifyBool.
From Sia Require Import Prim.Tok Policy.Model Text.Hex Text.Currency Text.CurrencyProofs.
From Sia Require Import Text.PolicyText.
Import ListNotations.
Local Open Scope N_scope.

Definition nosp (s : bytes) : Prop := Forall (fun c => is_space c = false) s.
Definition nodelim (s : bytes) : Prop := Forall (fun c => is_delim c = false) s.

Lemma nosp_nil : nosp [].
Proof. constructor. Qed.
Lemma nosp_cons c s : is_space c = false -> nosp s -> nosp (c :: s).
Proof. intros. constructor; assumption. Qed.
Lemma nosp_app a b : nosp a -> nosp b -> nosp (a ++ b).
Proof. intros A B. apply Forall_app; split; assumption. Qed.
(* [auto with nosp] shows that a string put together from pieces without spaces has none *)
Create HintDb nosp.
#[local] Hint Resolve nosp_nil nosp_cons nosp_app : nosp.

Lemma trim_nosp s : nosp s -> trim s = s.
Proof.
  intros N. unfold trim. rewrite (span_none is_space s) by (destruct N; auto). cbn [snd].
  rewrite (span_none is_space (rev s)) by (destruct (Forall_rev N); auto). cbn [snd]. apply rev_involutive.
Qed.

Lemma next_token_ok t d rest : nosp t -> nodelim t -> is_delim d = true -> nosp (d :: rest) ->
  next_token (t ++ d :: rest) = (t, d :: rest).
Proof.
  intros Nt Dt Hd Nr. unfold next_token.
  rewrite trim_nosp by auto with nosp.
  rewrite span_all by (eapply Forall_impl; [|exact Dt]; cbn; intros c ->; reflexivity).
  cbn [span]. rewrite Hd. cbn [negb fst snd]. rewrite app_nil_r, trim_nosp by exact Nt. reflexivity.
Qed.
Lemma consume_ok d rest : nosp (d :: rest) -> consume d (d :: rest) = TOk rest.
Proof. intros N. unfold consume. rewrite trim_nosp by exact N. rewrite N.eqb_refl. reflexivity. Qed.
Lemma peek_ok c rest : nosp (c :: rest) -> peek (c :: rest) = (c, c :: rest).
Proof. intros N. unfold peek. rewrite trim_nosp by exact N. reflexivity. Qed.

(* a policy's name, rendered with its opening parenthesis as [kw], is read by the parser's opening steps, whatever
   it goes on to do with the name *)
Lemma head_ok {B} name kw s (K : bytes -> bytes -> tres B) : kw = name ++ [40] ->
  forallb (fun c => (97 <=? c) && (c <=? 122)) name = true -> nosp s ->
  (let (typ, s') := next_token (str kw ++ s) in dot s'' <- consume 40 s'; K typ s'') = K name s.
Proof.
  intros -> A Ns. rewrite forallb_forall in A.
  assert (T : nosp name /\ nodelim name)
    by (split; apply Forall_forall; intros c I; specialize (A c I); unfold is_space, is_delim; lia).
  destruct T as [T1 T2]. unfold str. rewrite <- app_assoc. cbn [app]. rewrite next_token_ok, consume_ok by auto with nosp. reflexivity.
Qed.

(* t is a single token, which [parse] reads as v *)
Definition arg_ok {A} (parse : bytes -> tres A) (t : bytes) (v : A) : Prop := nosp t /\ nodelim t /\ parse t = TOk v.

Lemma digs_token d : digs d -> nosp d /\ nodelim d.
Proof. intros D. split; (eapply Forall_impl; [|exact D]); cbv beta; unfold is_digit, is_space, is_delim; lia. Qed.
Lemma digits_u64 n : n < 2 ^ 64 -> digs (digits n) /\ dec_val (digits n) = n /\ digits n <> [].
Proof. intros L. destruct (digits_spec n) as (D & V & NE & _); [unfold MAXCUR; lia | auto]. Qed.

Lemma uint_arg bits n : n < 2 ^ bits -> bits <= 64 -> arg_ok (parse_uint bits) (digits n) n.
Proof.
  intros L B. assert (M : 2 ^ bits <= 2 ^ 64) by (apply N.pow_le_mono_r; lia).
  destruct (digits_u64 n) as (D & V & NE); [lia|]. destruct (digs_token _ D) as [Ns Nd].
  split; [exact Ns | split; [exact Nd|]]. unfold parse_uint.
  destruct (digits n); [congruence|]. rewrite (digs_all _ D), V.
  assert (X : (n <? 2 ^ bits) = true) by lia. rewrite X. reflexivity.
Qed.
Lemma int_arg z : (- 2 ^ 63 <= z < 2 ^ 63)%Z -> arg_ok parse_int64 (render_int z) z.
Proof.
  intros R. unfold arg_ok, render_int, parse_int64. destruct (z <? 0)%Z eqn:E.
  - destruct (digits_u64 (Z.to_N (- z))) as (D & V & NE); [lia|]. destruct (digs_token _ D) as [Ns Nd].
    split; [constructor; [reflexivity | exact Ns] | split; [constructor; [reflexivity | exact Nd]|]].
    cbn [strip_sign]. destruct (digits (Z.to_N (- z))); [congruence|].
    rewrite (digs_all _ D), V, Z2N.id by lia.
    assert (X : (- z <=? 2 ^ 63)%Z = true) by lia. rewrite X. f_equal. lia.
  - destruct (digits_u64 (Z.to_N z)) as (D & V & NE); [lia|]. destruct (digs_token _ D) as [Ns Nd].
    split; [exact Ns | split; [exact Nd|]].
    rewrite (strip_sign_digs _ D). destruct (digits (Z.to_N z)); [congruence|].
    rewrite (digs_all _ D), V, Z2N.id by lia.
    assert (X : (z <? 2 ^ 63)%Z = true) by lia. rewrite X. reflexivity.
Qed.

Lemma hex_token b : byte_ok b -> nosp (hex_encode b) /\ nodelim (hex_encode b) /\ ~ In 58 (hex_encode b).
Proof.
  intros O. pose proof (hex_encode_chars b O) as C. rewrite Forall_forall in C. repeat split.
  1-2: apply Forall_forall; intros c I; specialize (C c I); unfold is_space, is_delim; lia.
  intros I. specialize (C 58 I). lia.
Qed.
Lemma hex_arg b : byte_ok b -> length b = 32%nat -> arg_ok parse_hex32 (hex0x b) b.
Proof.
  intros O L. destruct (hex_token b O) as (Ns & Nd & _). unfold arg_ok, hex0x.
  split; [repeat constructor; exact Ns | split; [repeat constructor; exact Nd|]].
  unfold parse_hex32. cbn [length]. rewrite hex_encode_length, L. cbn [Nat.eqb Nat.mul Nat.add negb].
  rewrite (hex_roundtrip b O). reflexivity.
Qed.

Lemma join_cons2 sep x y r : join sep (x :: y :: r) = x ++ sep :: join sep (y :: r).
Proof. reflexivity. Qed.
Lemma join_length sep (r : bytes) (rs : list bytes) : (length r <= length (join sep (r :: rs)) /\ length (join sep rs) <= length (join sep (r :: rs)))%nat.
Proof. destruct rs; [cbn [join length]; lia|]. rewrite join_cons2, app_length. cbn [length]. lia. Qed.

Section Loop.
Context {A : Type}.
Variable item : bytes -> tres (A * bytes).
(* r is the rendering of x: item parses it back whatever delimiter follows, and it starts with a visible
   character other than ']' *)
Definition item_ok (x : A) (r : bytes) : Prop :=
  (forall d rest, is_delim d = true -> nosp (d :: rest) -> item (r ++ d :: rest) = TOk (x, d :: rest)) /\ nosp r /\
  (exists c t, r = c :: t /\ c <> 93).

Lemma join_nosp xs rs : Forall2 item_ok xs rs -> nosp (join 44 rs) /\ (length xs <= length (join 44 rs))%nat.
Proof.
  induction 1 as [|x r xs rs Hx Hrest [IH1 IH2]]; [split; [constructor | cbn; lia]|].
  destruct Hx as (_ & Hn & (c & t & -> & _)).
  destruct Hrest; [cbn [join length] in *; split; [exact Hn | lia]|].
  rewrite join_cons2, app_length. cbn [length] in *. split; [auto with nosp | lia].
Qed.

Lemma list_loop_ok xs rs : Forall2 item_ok xs rs -> forall tail acc k, nosp tail -> (length xs < k)%nat ->
  list_loop item k (join 44 rs ++ 93 :: tail) acc = TOk (rev acc ++ xs, 93 :: tail).
Proof.
  induction 1 as [|x r xs rs Hx Hrest IH]; intros tail acc k Nt Lk; (destruct k as [|k]; [cbn in Lk; lia|]); cbn [length] in Lk.
  - cbn [join app list_loop]. rewrite peek_ok, N.eqb_refl, app_nil_r by auto with nosp. reflexivity.
  - destruct (join_nosp _ _ Hrest) as [Nj _]. destruct Hx as (Hi & Hn & (c & t & -> & Hc)).
    assert (E : (c =? 93) = false) by lia. specialize (IH tail (x :: acc) k Nt ltac:(lia)).
    destruct Hrest as [|x2 r2 xs' rs' _ _].
    + (* the last item: the loop ends at the next turn *)
      cbn [join app list_loop] in *. rewrite peek_ok, E by (rewrite app_comm_cons; auto with nosp).
      rewrite Hi by auto with nosp. cbn [tbind fst snd]. rewrite peek_ok, N.eqb_refl by auto with nosp.
      rewrite IH. cbn [rev]. rewrite <- app_assoc. reflexivity.
    + rewrite join_cons2 in *. set (more := join 44 (r2 :: rs')) in *. cbn [list_loop].
      rewrite <- app_assoc, <- !app_comm_cons, peek_ok, E by (rewrite app_comm_cons; auto 6 with nosp).
      rewrite app_comm_cons, Hi by auto 6 with nosp. cbn [tbind fst snd].
      rewrite peek_ok by auto 6 with nosp. cbn [N.eqb Pos.eqb]. rewrite consume_ok by auto 6 with nosp. cbn [tbind].
      rewrite IH. cbn [rev]. rewrite <- app_assoc. reflexivity.
Qed.

(* "v,[items]": the shape the threshold and the unlock conditions share, up to the closing bracket *)
Lemma list_arg_ok {B} bits v xs rs tail (K : N -> list A * bytes -> tres B) :
  v < 2 ^ bits -> bits <= 64 -> Forall2 item_ok xs rs -> nosp tail ->
  (let (t, s) := next_token (digits v ++ 44 :: 91 :: join 44 rs ++ 93 :: tail) in
   dot n <- parse_uint bits t; dot s <- consume 44 s; dot s <- consume 91 s;
   dot r <- list_loop item (S (length s)) s []; K n r) = K v (xs, 93 :: tail).
Proof.
  intros Lv Lb IT Nt. destruct (uint_arg bits v Lv Lb) as (Ns & Nd & Pv). destruct (join_nosp xs rs IT) as [Nj Lj].
  rewrite next_token_ok, Pv by auto 8 with nosp. cbn [tbind].
  rewrite consume_ok by auto 8 with nosp. cbn [tbind]. rewrite consume_ok by auto 8 with nosp. cbn [tbind].
  rewrite (list_loop_ok xs rs IT tail []) by (auto with nosp || (rewrite app_length; lia)). reflexivity.
Qed.
End Loop.

Definition wfkey (k : bytes * bytes) : Prop :=
  byte_ok (snd k) /\ forallb is_alnum (spec_text (fst k)) = true /\ fst k = pad16 (spec_text (fst k)) /\ (length (spec_text (fst k)) <= 16)%nat.

Lemma last_index_app t r i0 found : ~ In 58 r ->
  last_index 58 (t ++ 58 :: r) i0 found = Some (i0 + length t)%nat.
Proof.
  revert i0 found. induction t as [|x t IH]; intros i0 found NI.
  - cbn [app last_index length]. rewrite N.eqb_refl. rewrite Nat.add_0_r.
    clear - NI. revert NI. generalize (Some i0). generalize (S i0). induction r as [|y r IH]; intros j f NI; [reflexivity|].
    cbn [last_index]. destruct (N.eqb_spec y 58) as [->|]; [exfalso; apply NI; left; reflexivity|]. apply IH. intros I. apply NI. right. exact I.
  - cbn [app last_index length]. rewrite IH by exact NI. f_equal. lia.
Qed.

Lemma key_item_ok k t : wfkey k -> render_key k = Some t -> item_ok key_item k t.
Proof.
  destruct k as [sp0 key]. unfold wfkey, render_key. cbn [fst snd]. intros (Ok & Al & Pad & Len) R. rewrite Al in R. injection R as <-.
  destruct (hex_token _ Ok) as (Hs & Hd & H58). set (sp := spec_text sp0) in *.
  assert (G : Forall (fun c => is_space c = false /\ is_delim c = false /\ c <> 34 /\ c <> 93) sp).
  { rewrite forallb_forall in Al. apply Forall_forall. intros c I. specialize (Al c I). unfold is_alnum, is_space, is_delim in *. lia. }
  assert (Ns : nosp (sp ++ 58 :: hex_encode key) /\ nodelim (sp ++ 58 :: hex_encode key)).
  { split; (apply Forall_app; split; [eapply Forall_impl; [|exact G]; cbv beta; tauto | constructor; [reflexivity | assumption]]). }
  split; [|split; [apply Ns|]].
  - intros d rest Dd Nr. unfold key_item. rewrite next_token_ok by (assumption || apply Ns). unfold parse_key.
    rewrite (last_index_app sp (hex_encode key) 0 None H58). cbn [Nat.add].
    destruct (split_at_sep sp 58 (hex_encode key)) as [-> ->].
    assert (L16 : (16 <? length sp)%nat = false) by (apply Nat.ltb_ge; exact Len).
    rewrite L16, (hex_roundtrip _ Ok), <- Pad.
    (* the specifier does not begin with a quote *)
    destruct G as [|c r (_ & _ & Q & _) _]; [reflexivity|]. destruct c as [|p]; [reflexivity|].
    do 6 (destruct p as [p|p|]; try reflexivity). congruence.
  - destruct G as [|c r (_ & _ & _ & Q) _]; eexists _, _; (split; [reflexivity|]); [discriminate | exact Q].
Qed.

Fixpoint wfp (p : policy) : Prop :=
  match p with
  | PAbove h => h < 2 ^ 64
  | PAfter t => (- 2 ^ 63 <= t < 2 ^ 63)%Z
  | PPK k | PHash k | POpaque k => byte_ok k /\ length k = 32%nat
  | PThresh n ps => n < 256 /\ (fix all (l : list policy) : Prop := match l with [] => True | q :: r => wfp q /\ all r end) ps
  | PUC tl keys req => tl < 2 ^ 64 /\ req < 2 ^ 64 /\ Forall wfkey keys
  end.

Lemma all_some_forall2 {A B} (f : A -> option B) xs ys : all_some (map f xs) = Some ys -> Forall2 (fun x y => f x = Some y) xs ys.
Proof.
  revert ys. induction xs as [|x xs IH]; intros ys E; cbn [map all_some] in E.
  - injection E as <-. constructor.
  - destruct (f x) as [y|] eqn:Fx; [|discriminate]. destruct (all_some (map f xs)) as [ys'|]; [|discriminate].
    injection E as <-. constructor; [exact Fx | apply IH; reflexivity].
Qed.

Lemma render_head p s : render p = Some s -> exists c t, s = c :: t /\ c <> 93.
Proof.
  destruct p; cbn [render]; try destruct (all_some _); intros [= <-]; eexists _, _; (split; [reflexivity | discriminate]).
Qed.

(* The three shapes of argument list, as the parser's branches read them, closing parenthesis included. Stated of a
   branch alone, so that in [parse_render] the choice of the branch by the policy's name is a matter of conversion. *)
Lemma leaf_ok {A} (parse : bytes -> tres A) (C : A -> policy) t v rest : arg_ok parse t v -> nosp rest ->
  (dot ps <- (let (t', s) := next_token (t ++ 41 :: rest) in dot x <- parse t'; TOk (C x, s));
   dot s <- consume 41 (snd ps); TOk (fst ps, s)) = TOk (C v, rest).
Proof.
  intros (Ns & Nd & P) Nr. rewrite next_token_ok, P by auto with nosp. cbn [tbind fst snd].
  rewrite consume_ok by auto with nosp. reflexivity.
Qed.

Lemma thresh_ok item n ps rs rest : n < 256 -> Forall2 (item_ok item) ps rs -> nosp rest ->
  (dot q <- (let (t, s) := next_token (digits n ++ 44 :: 91 :: join 44 rs ++ 93 :: 41 :: rest) in
             dot n <- parse_uint 8 t; dot s <- consume 44 s; dot s <- consume 91 s;
             dot r <- list_loop item (S (length s)) s []; dot s <- consume 93 (snd r); TOk (PThresh n (fst r), s));
   dot s <- consume 41 (snd q); TOk (fst q, s)) = TOk (PThresh n ps, rest).
Proof.
  intros Ln IT Nr. rewrite (list_arg_ok item 8 n ps rs (41 :: rest)) by (auto with nosp || lia).
  cbn [fst snd]. rewrite consume_ok by auto with nosp. cbn [tbind fst snd]. rewrite consume_ok by auto with nosp. reflexivity.
Qed.

Lemma uc_ok tl keys ks req rest : tl < 2 ^ 64 -> req < 2 ^ 64 -> Forall2 (item_ok key_item) keys ks -> nosp rest ->
  (dot q <- (let (t, s) := next_token (digits tl ++ 44 :: 91 :: join 44 ks ++ 93 :: 44 :: digits req ++ 41 :: rest) in
             dot tl <- parse_uint 64 t; dot s <- consume 44 s; dot s <- consume 91 s;
             dot r <- list_loop key_item (S (length s)) s []; dot s <- consume 93 (snd r); dot s <- consume 44 s;
             let (t, s) := next_token s in dot req <- parse_uint 64 t; TOk (PUC tl (fst r) req, s));
   dot s <- consume 41 (snd q); TOk (fst q, s)) = TOk (PUC tl keys req, rest).
Proof.
  intros Lt Lr IT Nr. destruct (uint_arg 64 req Lr ltac:(lia)) as (Ns & Nd & Pr).
  rewrite (list_arg_ok key_item 64 tl keys ks (44 :: digits req ++ 41 :: rest)) by (auto with nosp || lia).
  cbn [fst snd]. rewrite consume_ok by auto with nosp. cbn [tbind]. rewrite consume_ok by auto with nosp. cbn [tbind].
  rewrite next_token_ok, Pr by auto with nosp. cbn [tbind fst snd]. rewrite consume_ok by auto with nosp. reflexivity.
Qed.

(* the names of the policies, which [render] writes before "(" and [parse_policy] compares the first token with *)
Definition kw_above : bytes := [97; 98; 111; 118; 101].
Definition kw_after : bytes := [97; 102; 116; 101; 114].
Definition kw_pk : bytes := [112; 107].
Definition kw_h : bytes := [104].
Definition kw_opaque : bytes := [111; 112; 97; 113; 117; 101].
Definition kw_thresh : bytes := [116; 104; 114; 101; 115; 104].
Definition kw_uc : bytes := [117; 99].

(* a rendered policy is parsed back in front of any rest free of white space; the fuel need only exceed the length of
   the rendering *)
Theorem parse_render fuel : forall p, wfp p ->
  match render p with
  | Some s => (length s < fuel)%nat -> (forall rest, nosp rest -> parse_policy fuel (s ++ rest) = TOk (p, rest)) /\ nosp s
  | None => True
  end.
Proof.
  induction fuel as [|f IH]; intros p W; [destruct (render p); [lia | exact I]|].
  destruct p as [h|t|k|k|n ps|a|tl keys req]; cbn [render wfp] in *.
  (* first the two policies with a list, [PThresh] and then [PUC], which is the sixth goal once the fifth is closed *)
  5: { destruct (all_some (map render ps)) as [rs|] eqn:AS; [|exact I]. intros L. destruct W as [Wn Wps].
      unfold str in L. rewrite !app_length in L. cbn [length] in L.
      (* each child's rendering is shorter than the list's, so the remaining fuel suffices for it *)
      assert (IT : Forall2 (item_ok (parse_policy f)) ps rs).
      { apply all_some_forall2 in AS. assert (Lj : (length (join 44 rs) < f)%nat) by lia. clear L. revert Wps Lj.
        induction AS as [|q r qs rs' Hq _ IHF]; intros Wps Lj; constructor; destruct (join_length 44 r rs').
        - specialize (IH q (proj1 Wps)). rewrite Hq in IH. destruct (IH ltac:(lia)) as [P1 P2].
          split; [intros d rest _ Nr; apply P1; exact Nr | split; [exact P2 | exact (render_head _ _ Hq)]].
        - apply IHF; [exact (proj2 Wps) | lia]. }
      destruct (join_nosp _ ps rs IT) as [Nj _]. destruct (uint_arg 8 n Wn ltac:(lia)) as (Ns & _).
      split; [intros rest Nr; rewrite <- !app_assoc; cbn [parse_policy app] | unfold str; auto 12 with nosp].
      rewrite (head_ok kw_thresh) by auto 8 with nosp. exact (thresh_ok _ n ps rs rest Wn IT Nr). }
  6: { destruct (all_some (map render_key keys)) as [ks|] eqn:AS; [|exact I]. intros _.
      destruct W as (Wt & Wr & Wk).
      assert (IT : Forall2 (item_ok key_item) keys ks).
      { apply all_some_forall2 in AS. induction AS as [|q r qs rs' Hq _ IHF]; [constructor|].
        inversion Wk as [|? ? Wq Wqs]; subst. constructor; [apply key_item_ok; assumption | apply IHF; exact Wqs]. }
      destruct (join_nosp _ keys ks IT) as [Nj _].
      destruct (uint_arg 64 tl Wt ltac:(lia)) as (Ns & _). destruct (uint_arg 64 req Wr ltac:(lia)) as (Ns' & _).
      split; [intros rest Nr; rewrite <- !app_assoc; cbn [parse_policy app] | unfold str; auto 16 with nosp].
      rewrite (head_ok kw_uc) by auto 12 with nosp. exact (uc_ok tl keys ks req rest Wt Wr IT Nr). }
  (* the five policies of one argument differ in its parser, for which [Ar] says that it reads the rendered argument
     back, and in the name *)
  1: pose proof (uint_arg 64 h W ltac:(lia)) as Ar.
  2: pose proof (int_arg t W) as Ar.
  3-5: pose proof (hex_arg _ (proj1 W) (proj2 W)) as Ar.
  all: intros _.
  all: pose proof Ar as (Ns & _).
  all: split; [intros rest Nr; rewrite <- !app_assoc; cbn [parse_policy app] | unfold str; auto 12 with nosp].
  1: rewrite (head_ok kw_above) by auto with nosp.
  2: rewrite (head_ok kw_after) by auto with nosp.
  3: rewrite (head_ok kw_pk) by auto with nosp.
  4: rewrite (head_ok kw_h) by auto with nosp.
  5: rewrite (head_ok kw_opaque) by auto with nosp.
  all: exact (leaf_ok _ _ _ _ _ Ar Nr).
Qed.

(* ParseSpendPolicy(p.String()) == p for every well-formed policy whose key algorithms print unquoted *)
Theorem policy_text_roundtrip p s : render p = Some s -> wfp p -> parse_spend_policy s = TOk p.
Proof.
  intros R W. unfold parse_spend_policy. pose proof (parse_render (S (length s)) p W) as P. rewrite R in P.
  destruct (P (Nat.lt_succ_diag_r _)) as [P' _].
  rewrite <- (app_nil_r s) at 2. rewrite (P' [] nosp_nil). reflexivity.
Qed.
