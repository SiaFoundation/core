From Coq Require Import List NArith Lia Bool PeanoNat ZifyN ZifyNat ZifyBool.
From Sia Require Import Prim.Tok.
From Sia Require Import Text.Currency.
Import ListNotations.
Local Open Scope N_scope.

Lemma fold_dec b : forall x, fold_left (fun a c => 10 * a + (c - 48)) b x = x * 10 ^ N.of_nat (length b) + dec_val b.
Proof.
  unfold dec_val. induction b as [|c b IH]; intros x; cbn [fold_left length].
  - cbn. lia.
  - rewrite IH. rewrite (IH (10 * 0 + (c - 48))). rewrite Nat2N.inj_succ, N.pow_succ_r'. lia.
Qed.
Lemma dec_val_app a b : dec_val (a ++ b) = dec_val a * 10 ^ N.of_nat (length b) + dec_val b.
Proof. unfold dec_val at 1. rewrite fold_left_app. apply fold_dec. Qed.
Lemma dec_val_zeros k : dec_val (repeat 48 k) = 0.
Proof. induction k as [|k IH]; [reflexivity|]. change (repeat 48 (S k)) with ([48] ++ repeat 48 k). rewrite dec_val_app, IH. cbn. lia. Qed.

Lemma dec_val_single c : dec_val [c] = c - 48.
Proof. unfold dec_val. cbn [fold_left]. lia. Qed.
Lemma dec_val_snoc a c : dec_val (a ++ [c]) = 10 * dec_val a + (c - 48).
Proof. unfold dec_val. rewrite fold_left_app. reflexivity. Qed.

Definition digs (l : bytes) : Prop := Forall (fun c => is_digit c = true) l.
Lemma digs_all l : digs l -> all_digits l = true.
Proof. unfold all_digits, digs. intros D. apply forallb_forall. apply Forall_forall. exact D. Qed.

Lemma digit_char d : d < 10 -> is_digit (48 + d) = true /\ 48 + d - 48 = d.
Proof. unfold is_digit. lia. Qed.
Lemma div10 n : 10 <= n -> 10 * (n / 10) + n mod 10 = n /\ n mod 10 < 10 /\ n / 10 <> 0.
Proof.
  intros L. split; [symmetry; apply N.div_mod; discriminate | split; [apply N.mod_lt; discriminate|]].
  intros Z. apply N.div_small_iff in Z; [|discriminate]. exact (N.lt_irrefl _ (N.lt_le_trans _ _ _ Z L)).
Qed.

Lemma digits_fuel_spec f : forall n acc, n < 10 ^ N.of_nat f -> (0 < f)%nat ->
  exists d r, digits_fuel f n acc = (d :: r) ++ acc /\ digs (d :: r) /\ dec_val (d :: r) = n /\ (n <> 0 -> d <> 48).
Proof.
  induction f as [|f IH]; intros n acc L F; [inversion F|].
  cbn [digits_fuel]. destruct (N.ltb_spec n 10) as [E|E].
  - destruct (digit_char n E) as [Dn Vn]. exists (48 + n), []. split; [reflexivity|]. split; [constructor; [exact Dn | constructor]|].
    split; [rewrite dec_val_single; exact Vn | clear; lia].
  - destruct (div10 n E) as (Dm & Lt & NZ). destruct (digit_char _ Lt) as [Dn Vn].
    assert (F0 : (0 < f)%nat) by (destruct f; [clear - L E; cbn in L; lia | apply Nat.lt_0_succ]).
    assert (L' : n / 10 < 10 ^ N.of_nat f).
    { rewrite Nat2N.inj_succ, N.pow_succ_r' in L. apply N.div_lt_upper_bound; [discriminate | exact L]. }
    destruct (IH (n / 10) ((48 + n mod 10) :: acc) L' F0) as (d & r & P & D & V & Hd).
    exists d, (r ++ [48 + n mod 10]). split; [rewrite P; cbn [app]; rewrite <- app_assoc; reflexivity|]. rewrite app_comm_cons.
    split; [apply Forall_app; split; [exact D | constructor; [exact Dn | constructor]]|].
    split; [rewrite dec_val_snoc, V, Vn; exact Dm | intros _; exact (Hd NZ)].
Qed.

Lemma digits_spec n : n <= MAXCUR -> digs (digits n) /\ dec_val (digits n) = n /\ digits n <> [] /\
  (n <> 0 -> exists d r, digits n = d :: r /\ d <> 48).
Proof.
  intros L. unfold digits.
  assert (B40 : MAXCUR < 10 ^ N.of_nat 40) by (apply N.ltb_lt; vm_compute; reflexivity).
  destruct (digits_fuel_spec 40 n [] ltac:(lia) ltac:(lia)) as (d & r & -> & D & V & Hd). rewrite app_nil_r.
  split; [exact D|]. split; [exact V|]. split; [discriminate | eauto].
Qed.

Lemma span_all p a b : Forall (fun c => p c = true) a -> span p (a ++ b) = (a ++ fst (span p b), snd (span p b)).
Proof.
  induction 1 as [|x a Hx _ IH]; cbn [app span].
  - destruct (span p b); reflexivity.
  - rewrite Hx, IH. reflexivity.
Qed.
Lemma span_none p s : (match s with [] => True | c :: _ => p c = false end) -> span p s = ([], s).
Proof. destruct s as [|c r]; [reflexivity|]. intros E. cbn [span]. rewrite E. reflexivity. Qed.

Lemma parse_split num us : Forall (fun c => is_num c = true) num -> Forall (fun c => is_num c = false) us ->
  cur_parse (num ++ us) = cur_parse_split num (trim_spaces us).
Proof.
  intros Hn Hu. unfold cur_parse. rewrite rev_app_distr.
  rewrite span_all by (apply Forall_rev; eapply Forall_impl; [|exact Hu]; cbv beta; intros c ->; reflexivity).
  apply Forall_rev in Hn. rewrite span_none.
  - cbn [fst snd]. rewrite app_nil_r, !rev_involutive. reflexivity.
  - destruct Hn as [|x r Hx _]; [exact I | rewrite Hx; reflexivity].
Qed.
Lemma digs_num s : digs s -> Forall (fun c => is_num c = true) s.
Proof. intros D. eapply Forall_impl; [|exact D]. cbv beta. unfold is_num. intros c ->. reflexivity. Qed.

Lemma strip_sign_other c r : c <> 43 -> c <> 45 -> strip_sign (c :: r) = (false, c :: r).
Proof.
  intros P M. unfold strip_sign. destruct c as [|p]; [reflexivity|].
  do 6 (destruct p as [p|p|]; try reflexivity); congruence.
Qed.
Lemma strip_sign_digs d : digs d -> strip_sign d = (false, d).
Proof.
  intros D. destruct D as [|c r Hc _]; [reflexivity|]. unfold is_digit in Hc. apply strip_sign_other; lia.
Qed.

Lemma finish_ok v : v <= MAXCUR -> finish false v = POk v.
Proof. intros L. unfold finish. cbn [andb]. destruct (MAXCUR <? v) eqn:E; [lia | reflexivity]. Qed.

Lemma parse_int d u : digs d -> d <> [] -> dec_val d <= MAXCUR -> (u = [] \/ u = [72]) ->
  cur_parse_split d u = POk (dec_val d).
Proof.
  intros D NE L U. destruct d as [|d0 r]; [congruence|]. unfold cur_parse_split.
  assert (Um : (match u with [] => true | [72] => true | _ => false end) = true) by (destruct U as [->| ->]; reflexivity).
  rewrite Um. rewrite (strip_sign_digs _ D). rewrite (digs_all _ D). apply finish_ok. exact L.
Qed.

Lemma parse_digits s u : digs s -> s <> [] -> dec_val s <= MAXCUR -> Forall (fun c => is_num c = false) u ->
  trim_spaces u = [] \/ trim_spaces u = [72] -> cur_parse (s ++ u) = POk (dec_val s).
Proof. intros D NE L Hu U. rewrite parse_split by (assumption || exact (digs_num s D)). apply parse_int; assumption. Qed.

Lemma trim_rev_spec r : exists k, r = repeat 48 k ++ trim_zeros_rev r.
Proof.
  induction r as [|x r [k IH]]; [exists 0%nat; reflexivity|].
  destruct (N.eq_dec x 48) as [->|Ne].
  - exists (S k). cbn [trim_zeros_rev repeat app]. rewrite <- IH. reflexivity.
  - exists 0%nat. cbn [repeat app]. destruct x as [|p]; [reflexivity|].
    do 6 (destruct p as [p|p|]; try reflexivity). congruence.
Qed.
Lemma rev_repeat {A} (x : A) k : rev (repeat x k) = repeat x k.
Proof. induction k as [|k IH]; [reflexivity|]. cbn [repeat rev]. rewrite IH. symmetry. apply repeat_cons. Qed.
Lemma trim_spec l : digs l -> exists k, l = trim_trailing_zeros l ++ repeat 48 k /\ digs (trim_trailing_zeros l).
Proof.
  intros D. unfold trim_trailing_zeros. destruct (trim_rev_spec (rev l)) as [k E]. exists k.
  assert (L : l = rev (trim_zeros_rev (rev l)) ++ repeat 48 k).
  { rewrite <- (rev_involutive l) at 1. rewrite E at 1. rewrite rev_app_distr, rev_repeat. reflexivity. }
  split; [exact L|]. rewrite L in D. apply Forall_app in D. apply D.
Qed.

(* a mantissa, then the e digits below the unit with their trailing zeros dropped (and the point with them if none
   is left), then a unit other than the hastings suffix: the value is that of all the digits *)
Lemma parse_unit mant low u e : digs mant -> mant <> [] -> digs low ->
  (match u with [] => true | [72] => true | _ => false end) = false -> unit_exp u = Some e -> N.of_nat (length low) = e ->
  dec_val (mant ++ low) <= MAXCUR ->
  cur_parse_split (mant ++ match trim_trailing_zeros low with [] => [] | _ => 46 :: trim_trailing_zeros low end) u =
  POk (dec_val (mant ++ low)).
Proof.
  intros Dm NE Dl Un Ue Le Lv. destruct (trim_spec low Dl) as (z & Ez & Df).
  set (frac := trim_trailing_zeros low) in *. rewrite Ez, app_length, repeat_length in Le.
  rewrite Ez, app_assoc, dec_val_app, dec_val_zeros, repeat_length, N.add_0_r in *.
  replace (N.of_nat z) with (e - N.of_nat (length frac)) in * by (clear - Le; lia).
  destruct mant as [|m0 mr]; [congruence|]. unfold cur_parse_split. cbn [app]. rewrite Un.
  inversion Dm as [|? ? Hd _]; subst m0 mr. rewrite strip_sign_other by (clear - Hd; unfold is_digit in Hd; lia).
  rewrite app_comm_cons, span_all, span_none by (exact Dm || (destruct frac; [exact I | reflexivity])).
  cbn [fst snd]. rewrite app_nil_r.
  assert (FP : (match (match frac with [] => [] | _ :: _ => 46 :: frac end) with 46 :: f => Some f | [] => Some [] | _ => None end) = Some frac)
    by (destruct frac; reflexivity).
  rewrite FP, (digs_all _ Df), Ue. cbn [negb app].
  assert (LE : (N.of_nat (length frac) <=? e) = true) by (clear - Le; lia). rewrite LE. apply finish_ok. exact Lv.
Qed.

Lemma unit_name_exp u : 4 <= u <= 12 -> let name := unit_name (u - 4) in
  (match name with [] => true | [72] => true | _ => false end) = false /\ unit_exp name = Some (u * 3) /\
  Forall (fun c => is_num c = false) (32 :: name) /\ trim_spaces (32 :: name) = name.
Proof.
  intros R. assert (C : u = 4 \/ u = 5 \/ u = 6 \/ u = 7 \/ u = 8 \/ u = 9 \/ u = 10 \/ u = 11 \/ u = 12) by lia.
  repeat (destruct C as [->|C]; [repeat split; repeat constructor|]). subst. repeat split; repeat constructor.
Qed.

(* ParseCurrency(c.String()) == c, for every Currency value *)
Theorem cur_roundtrip c : c <= MAXCUR -> cur_parse (cur_render c) = POk c.
Proof.
  intros L. unfold cur_render. destruct (c =? 0) eqn:Z.
  { assert (c = 0) by lia. subst. vm_compute. reflexivity. }
  destruct (digits_spec c L) as (D & V & NE & _).
  set (s := digits c) in *.
  set (u0 := (N.of_nat (length s) - 1) / 3).
  destruct (u0 <? 4) eqn:U4.
  - rewrite (parse_digits s [32; 72] D NE); [rewrite V; reflexivity | rewrite V; exact L | repeat constructor | right; reflexivity].
  - (* with a unit: the last 3u digits stand below it *)
    set (u := N.min u0 12).
    assert (Ur : 4 <= u <= 12) by (subst u; lia).
    assert (Lu : (N.to_nat (u * 3) < length s)%nat).
    { assert (Ls : length s <> 0%nat) by (destruct s; [congruence | discriminate]). clear - U4 Ls. subst u u0. lia. }
    set (k := (length s - N.to_nat (u * 3))%nat).
    assert (Ds : digs (firstn k s) /\ digs (skipn k s)) by (rewrite <- (firstn_skipn k s) in D; apply Forall_app in D; exact D).
    destruct Ds as [Dm Dk]. destruct (trim_spec _ Dk) as (_ & _ & Df).
    assert (NEm : firstn k s <> []).
    { intros E. apply (f_equal (@length N)) in E. rewrite firstn_length in E. cbn [length] in E. lia. }
    destruct (unit_name_exp u Ur) as (Uh & Ue & Un & Ut).
    rewrite app_assoc, parse_split, Ut; [|apply Forall_app; split; [exact (digs_num _ Dm)|] | exact Un].
    + rewrite (parse_unit _ _ _ (u * 3)); rewrite ?firstn_skipn, ?V, ?skipn_length; auto. lia.
    + destruct (trim_trailing_zeros (skipn k s)); constructor; [reflexivity | exact (digs_num _ Df)].
Qed.

(* ParseCurrency(c.ExactString()) == c: the JSON / MarshalText form *)
Theorem exact_roundtrip c : c <= MAXCUR -> cur_parse (digits c) = POk c.
Proof.
  intros L. destruct (digits_spec c L) as (D & V & NE & _).
  rewrite <- (app_nil_r (digits c)).
  rewrite (parse_digits _ [] D NE); [rewrite V; reflexivity | rewrite V; exact L | constructor | left; reflexivity].
Qed.
