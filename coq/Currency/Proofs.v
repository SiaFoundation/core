From Coq Require Import ZArith Bool Lia.
From Sia Require Import Prim.Result Currency.Model.
Open Scope Z_scope.

(* The proofs of this file use the limb base only through this fact. [W] is opaque from here on so that [simpl] and
   [cbn] leave it folded; that binds tactics, not conversion, and Div.v reads the value off by [reflexivity] or [change]
   in the three places where the algorithm depends on it ([lz64_spec], [W_half], [incr_limbs]). *)
Lemma W_pos : 0 < W. Proof. reflexivity. Qed.
Global Opaque W.

Lemma mod_W x : x mod W = x - W * (x / W).
Proof. apply Z.mod_eq. pose proof W_pos. lia. Qed.

Lemma div_W_nonneg x : 0 <= x -> 0 <= x / W.
Proof. intros. apply Z.div_pos; [assumption | apply W_pos]. Qed.

Lemma val_range c : wfc c -> 0 <= val c < W * W.
Proof.
  unfold wfc, val. intros [? ?].
  assert (0 <= W * hi c <= W * (W - 1)) by (split; [apply Z.mul_nonneg_nonneg | apply Z.mul_le_mono_nonneg_l]; lia).
  lia.
Qed.

Lemma val_lt a b : wfc a -> wfc b -> hi a < hi b -> val a < val b.
Proof.
  intros [? _] [? _] ?. unfold val.
  assert (W * (hi a + 1) <= W * hi b) by (apply Z.mul_le_mono_nonneg_l; lia). lia.
Qed.

Lemma val_inj a b : wfc a -> wfc b -> val a = val b -> a = b.
Proof.
  intros Ha Hb E. pose proof (val_lt a b Ha Hb). pose proof (val_lt b a Hb Ha).
  destruct a as [al ah], b as [bl bh]; unfold val in *; cbn [lo hi] in *.
  assert (ah = bh) as -> by lia. f_equal. lia.
Qed.

(* r holds x exactly, up to the 128 bits kept, and its flag reports [bad] *)
Definition exact_op (r : cur * bool) (x : Z) (bad : Prop) : Prop :=
  wfc (fst r) /\ val (fst r) = x mod (W * W) /\ (snd r = true <-> bad).

(* The shape every limb computation is brought to: the two limbs kept plus k units of W * W lost. *)
Lemma limbs_exact l h f x k bad : x = l mod W + W * (h mod W) + W * W * k ->
  ((W * W <= x <-> 0 < k) -> (x < 0 <-> k < 0) -> (f = true <-> bad)) ->
  exact_op (mkCur (l mod W) (h mod W), f) x bad.
Proof.
  intros -> Hf. pose proof W_pos.
  assert (Hr : wfc (mkCur (l mod W) (h mod W))) by (split; apply Z.mod_pos_bound; assumption).
  split; [exact Hr|]. apply val_range in Hr. unfold val in *; cbn [fst lo hi] in *. set (M := W * W) in *.
  split; [apply Z.mod_unique with k; [left; assumption | ring]|].
  assert (0 < k -> M * 1 <= M * k) by (intros; apply Z.mul_le_mono_nonneg_l; lia).
  assert (k < 0 -> M * k <= M * (-1)) by (intros; apply Z.mul_le_mono_nonneg_l; lia).
  assert (k = 0 -> M * k = 0) by (intros ->; ring).
  apply Hf; lia.
Qed.

Theorem add_exact a b : wfc a -> wfc b -> exact_op (add_wo a b) (val a + val b) (W * W <= val a + val b).
Proof.
  destruct a as [al ah], b as [bl bh]; intros [? [? _]] [? [? _]]; unfold add_wo, add64, val; simpl in *.
  set (s0 := al + bl + 0). set (s1 := ah + bh + s0 / W).
  apply limbs_exact with (k := s1 / W); [unfold s1, s0; rewrite !mod_W; ring|]. intros -> _.
  assert (0 <= s0 / W) by (apply div_W_nonneg; unfold s0; lia).
  assert (0 <= s1 / W) by (apply div_W_nonneg; unfold s1; lia).
  lia.
Qed.

(* The borrow out of a limb subtraction is minus the (floored) quotient, as the carry out of an addition is the quotient. *)
Lemma borrow_div d : - W <= d < W -> (if d <? 0 then 1 else 0) = - (d / W).
Proof.
  intros. destruct (Z.ltb_spec d 0).
  - rewrite <- (Z.div_unique d W (-1) (d + W)); [reflexivity | lia | ring].
  - rewrite Z.div_small by lia. reflexivity.
Qed.

Lemma div_W_neg d : d / W < 0 <-> d < 0.
Proof.
  pose proof W_pos. split; intros.
  - destruct (Z.lt_ge_cases d 0); [assumption | pose proof (div_W_nonneg d); lia].
  - apply Z.div_lt_upper_bound; lia.
Qed.

Theorem sub_exact a b : wfc a -> wfc b -> exact_op (sub_wu a b) (val a - val b) (val a < val b).
Proof.
  destruct a as [al ah], b as [bl bh]; intros [? _] [? _]; unfold sub_wu, sub64, val; simpl in *.
  rewrite (borrow_div (al - bl - 0)) by lia.
  set (d0 := al - bl - 0). set (d1 := ah - bh - - (d0 / W)).
  apply limbs_exact with (k := d1 / W); [unfold d1, d0; rewrite !mod_W; ring|]. intros _ Hb.
  pose proof (div_W_neg d1). destruct (Z.ltb_spec d1 0); cbn [Z.eqb negb]; lia.
Qed.

Theorem mul_exact a b : wfc a -> wfc b -> exact_op (mul_wo a b) (val a * val b) (W * W <= val a * val b).
Proof.
  destruct a as [clo chi], b as [vlo vhi]; intros [[? _] [? _]] [[? _] [? _]]; unfold mul_wo, mul64, add64, val; simpl in *.
  (* schoolbook: a + W (b + c) + W^2 d with the two additions into the high limb *)
  set (a := clo * vlo). set (b := chi * vlo). set (c := clo * vhi). set (d := chi * vhi).
  set (s1 := a / W + b mod W + 0). set (s2 := s1 mod W + c mod W + 0).
  apply limbs_exact with (k := d + b / W + c / W + s1 / W + s2 / W).
  { (* one addition at a time, its carry named before the sum is unfolded, so that no carry is expanded inside another *)
    rewrite (mod_W a), (mod_W s2). generalize (s2 / W). unfold s2. rewrite (mod_W s1), (mod_W c).
    generalize (s1 / W). unfold s1. rewrite (mod_W b). intros. unfold a, b, c, d. ring. }
  intros -> _.
  assert (0 <= a /\ 0 <= b /\ 0 <= c /\ 0 <= d) as (? & ? & ? & ?) by (repeat split; apply Z.mul_nonneg_nonneg; assumption).
  pose proof (Z.mod_pos_bound b W W_pos). pose proof (Z.mod_pos_bound c W W_pos). pose proof (Z.mod_pos_bound s1 W W_pos).
  pose proof (div_W_nonneg a). pose proof (div_W_nonneg b). pose proof (div_W_nonneg c).
  assert (0 <= s1 / W) by (apply div_W_nonneg; unfold s1; lia).
  assert (0 <= s2 / W) by (apply div_W_nonneg; unfold s2; lia).
  pose proof (Z.mul_eq_0 chi vhi : d = 0 <-> _). lia.
Qed.

Theorem mul64_exact a v : wfc a -> 0 <= v < W -> exact_op (mul64_wo a v) (val a * v) (W * W <= val a * v).
Proof.
  destruct a as [clo chi]; intros [[? _] [? _]] [? _]; unfold mul64_wo, mul64, add64, val; simpl in *.
  set (a := clo * v). set (b := chi * v). set (s := a / W + b mod W + 0).
  apply limbs_exact with (k := b / W + s / W); [unfold s; rewrite !mod_W; unfold a, b; ring|]. intros -> _.
  assert (0 <= a /\ 0 <= b) as (? & ?) by (split; apply Z.mul_nonneg_nonneg; assumption).
  pose proof (Z.mod_pos_bound b W W_pos). pose proof (div_W_nonneg a). pose proof (div_W_nonneg b).
  assert (0 <= s / W) by (apply div_W_nonneg; unfold s; lia).
  lia.
Qed.

Theorem cmp_exact a b : wfc a -> wfc b ->
  cmp a b = match Z.compare (val a) (val b) with Eq => 0 | Lt => -1 | Gt => 1 end.
Proof.
  intros Ha Hb. pose proof (val_lt a b Ha Hb). pose proof (val_lt b a Hb Ha).
  (* every test in cmp is a case of the comparison of the high or of the low limbs *)
  unfold cmp, Z.ltb, val in *. rewrite !Z.eqb_compare.
  destruct (Z.compare_spec (hi a) (hi b)); destruct (Z.compare_spec (lo a) (lo b)); cbn [andb orb];
    destruct (Z.compare_spec (lo a + W * hi a) (lo b + W * hi b)); try reflexivity; lia.
Qed.

(* panicking wrappers: panic exactly when the exact result does not fit *)
Lemma checked_exact p r x (Good Bad : Prop) : exact_op r x Bad ->
  (Good -> ~ Bad /\ 0 <= x < W * W) ->
  (Good -> exists c, checked p r = Ok c /\ wfc c /\ val c = x) /\ (Bad -> checked p r = Panic p).
Proof.
  destruct r as [c f]; unfold checked, exact_op; cbn [fst snd]. intros (Hw & Hv & Hf) Hg. split.
  - intros G. destruct (Hg G) as [NB R]. destruct f; [exfalso; apply NB, Hf; reflexivity|].
    exists c. rewrite Z.mod_small in Hv by exact R. auto.
  - intros B. apply Hf in B. rewrite B. reflexivity.
Qed.

Theorem add_checked a b : wfc a -> wfc b ->
  (val a + val b < W * W -> exists r, add a b = Ok r /\ wfc r /\ val r = val a + val b) /\
  (W * W <= val a + val b -> add a b = Panic POverflow).
Proof.
  intros Ha Hb. apply checked_exact; [apply add_exact; assumption|].
  pose proof (val_range a Ha). pose proof (val_range b Hb). lia.
Qed.

Theorem sub_checked a b : wfc a -> wfc b ->
  (val b <= val a -> exists r, sub a b = Ok r /\ wfc r /\ val r = val a - val b) /\
  (val a < val b -> sub a b = Panic PUnderflow).
Proof.
  intros Ha Hb. apply checked_exact; [apply sub_exact; assumption|].
  pose proof (val_range a Ha). pose proof (val_range b Hb). lia.
Qed.

Theorem mul64_checked a v : wfc a -> 0 <= v < W ->
  (val a * v < W * W -> exists r, mul_64 a v = Ok r /\ wfc r /\ val r = val a * v) /\
  (W * W <= val a * v -> mul_64 a v = Panic POverflow).
Proof.
  intros Ha Hv. apply checked_exact; [apply mul64_exact; assumption|].
  pose proof (val_range a Ha). pose proof (Z.mul_nonneg_nonneg (val a) v). lia.
Qed.

Theorem mul_checked a b : wfc a -> wfc b ->
  (val a * val b < W * W -> exists r, mul a b = Ok r /\ wfc r /\ val r = val a * val b) /\
  (W * W <= val a * val b -> mul a b = Panic POverflow).
Proof.
  intros Ha Hb. apply checked_exact; [apply mul_exact; assumption|].
  pose proof (val_range a Ha). pose proof (val_range b Hb). pose proof (Z.mul_nonneg_nonneg (val a) (val b)). lia.
Qed.

(* bits.Div64 does not panic when the high word is below the divisor, and then its quotient fits a limb *)
Lemma div64_exact h l y : 0 <= h < y -> 0 <= l < W ->
  div64 h l y = Ok ((h * W + l) / y, (h * W + l) mod y) /\ 0 <= (h * W + l) / y < W.
Proof.
  intros Hh Hl. unfold div64. destruct (Z.eqb_spec y 0); [lia|]. destruct (Z.leb_spec y h); [lia|].
  split; [reflexivity|]. pose proof W_pos.
  assert (0 <= h * W) by (apply Z.mul_nonneg_nonneg; lia).
  assert ((h + 1) * W <= y * W) by (apply Z.mul_le_mono_nonneg_r; lia).
  split; [apply Z.div_pos | apply Z.div_lt_upper_bound]; lia.
Qed.

(* long division by one limb: divide the high limb, carry its remainder into the low one *)
Lemma div_limbs ch cl v : 0 < v ->
  (cl + W * ch) / v = ((ch mod v) * W + cl) / v + W * (ch / v) /\
  (cl + W * ch) mod v = ((ch mod v) * W + cl) mod v.
Proof.
  intros Hv.
  assert (E : cl + W * ch = (ch mod v) * W + cl + (W * (ch / v)) * v) by (rewrite (Z.div_mod ch v) at 1 by lia; ring).
  rewrite E. split; [apply Z.div_add | apply Z.mod_add]; lia.
Qed.

Theorem quorem64_exact c v : wfc c -> 0 < v < W ->
  exists q r, quorem64 c v = Ok (q, r) /\ wfc q /\ val q = val c / v /\ r = val c mod v.
Proof.
  intros [Hl Hh] Hv. destruct (div_limbs (hi c) (lo c) v) as [Eq Er]; [lia|].
  pose proof (Z.mod_pos_bound (hi c) v ltac:(lia)) as Hr.
  destruct (div64_exact (hi c mod v) (lo c) v Hr Hl) as [E2 Hq2].
  (* both branches compute the same pair: when hi c < v the first division would give 0 and hi c *)
  assert (E : quorem64 c v = Ok (mkCur ((hi c mod v * W + lo c) / v) (hi c / v), (hi c mod v * W + lo c) mod v)).
  { unfold quorem64. destruct (Z.ltb_spec (hi c) v).
    - rewrite Z.mod_small in E2 |- * by lia. rewrite E2, (Z.div_small (hi c) v) by lia. reflexivity.
    - destruct (div64_exact 0 (hi c) v) as [-> _]; [lia..|]. cbn [bind fst snd Z.mul Z.add]. rewrite E2. reflexivity. }
  rewrite E. eexists _, _. split; [reflexivity|]. unfold val, wfc; cbn [lo hi]. rewrite Eq, Er.
  split; [split; [assumption|]|split; reflexivity].
  assert (1 * W <= v * W) by (apply Z.mul_le_mono_nonneg_r; lia).
  split; [apply Z.div_pos | apply Z.div_lt_upper_bound]; lia.
Qed.

Theorem quorem64_zero c : quorem64 c 0 = Panic PDivZero.
Proof. unfold quorem64, div64. destruct (hi c <? 0); reflexivity. Qed.
