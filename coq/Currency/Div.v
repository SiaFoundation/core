(* Currency.Div / quoRem are exact. A divisor that fits one limb is Proofs.quorem64_exact; the work is the trial-quotient
   algorithm for a divisor above 64 bits. *)
From Coq Require Import ZArith Bool List Lia.
From Sia Require Import Prim.Result Currency.Model Currency.Proofs.
Open Scope Z_scope.

(* D is V with its low bits cleared (V < D + 2a), D >= w a, C < w^2 for w = 2ab: the quotient by D exceeds the
   quotient by V by at most one *)
Lemma trial_quotient_gen w C V D a b : 1 <= a -> 1 <= b -> w = 2 * a * b ->
  0 <= C < w * w -> w * a <= D -> D <= V < D + 2 * a ->
  C / V <= C / D <= C / V + 1.
Proof.
  intros Ha Hb -> HC HD HV.
  assert (Kpos : 0 < 2 * a * b * a) by (repeat apply Z.mul_pos_pos; lia).
  assert (Dpos : 0 < D) by lia. assert (Vpos : 0 < V) by lia.
  split; [apply Z.div_le_compat_l; lia|].
  set (q := C / V). set (t := C / D).
  assert (Q0 : 0 <= q) by (apply Z.div_pos; lia).
  assert (Q1 : V * q <= C) by (apply Z.mul_div_le; lia).
  assert (Q2 : C < V * (q + 1)) by (apply Z.mul_succ_div_gt; lia).
  assert (T1 : D * t <= C) by (apply Z.mul_div_le; lia).
  destruct (Z.le_gt_cases t (q + 1)) as [|G]; [assumption|]. exfalso.
  (* D (q+2) <= D t <= C < V (q+1) <= (D + 2a - 1) (q+1), so D < (2a - 1) (q+1) *)
  assert (T2 : D * (q + 2) <= D * t) by (apply Z.mul_le_mono_nonneg_l; lia).
  assert (U : V * (q + 1) <= (D + (2 * a - 1)) * (q + 1)) by (apply Z.mul_le_mono_nonneg_r; lia).
  rewrite Z.mul_add_distr_r in U. set (m := (2 * a - 1) * (q + 1)) in *.
  assert (X : D < m) by lia.
  (* q < 2b, since w a q <= V q <= C < w a (2b) *)
  assert (QB : q < 2 * b).
  { apply (Z.mul_lt_mono_pos_l (2 * a * b * a)); [assumption|].
    assert (2 * a * b * a * q <= V * q) by (apply Z.mul_le_mono_nonneg_r; lia).
    replace (2 * a * b * a * (2 * b)) with (2 * a * b * (2 * a * b)) by ring. lia. }
  assert (Y : m <= (2 * a - 1) * (2 * b)) by (apply Z.mul_le_mono_nonneg_l; lia).
  (* hence 2ab a <= D < (2a - 1) 2b, that is 2b (a-1)^2 < 0 *)
  assert (S : 0 <= b * ((a - 1) * (a - 1))) by (apply Z.mul_nonneg_nonneg; [lia | apply Z.square_nonneg]).
  clear - HD X Y S. lia.
Qed.

Lemma trial_quotient C V D a b : 1 <= a -> 1 <= b -> a * b = 2 ^ 63 ->
  0 <= C < 2 ^ 128 -> 2 ^ 64 * a <= D -> D <= V < D + 2 * a ->
  C / V <= C / D <= C / V + 1.
Proof.
  intros Ha Hb Hab HC HD HV.
  apply (trial_quotient_gen (2 ^ 64) C V D a b); try assumption. rewrite <- Z.mul_assoc, Hab. reflexivity.
Qed.

(* quoRem lowers the trial quotient by one unless it is zero: exact or one too large becomes exact or one too small *)
Lemma lowered_trial C V t : 0 <= C -> 0 < V -> C / V <= t <= C / V + 1 ->
  let tq := if t =? 0 then t else t - 1 in 0 <= tq <= C / V /\ V * tq <= C < V * tq + 2 * V.
Proof.
  intros HC HV Ht. set (q := C / V) in *.
  assert (Q0 : 0 <= q) by (apply Z.div_pos; lia).
  assert (Q1 : V * q <= C) by (apply Z.mul_div_le; lia).
  assert (Q2 : C < V * (q + 1)) by (apply Z.mul_succ_div_gt; lia).
  cbv zeta. destruct (Z.eqb_spec t 0) as [->|].
  - replace q with 0 in * by lia. lia.
  - assert (t = q \/ t = q + 1) as [-> | ->] by lia; lia.
Qed.

Lemma land_disjoint x y n : 0 <= n -> 0 <= y < 2 ^ n -> Z.land (x * 2 ^ n) y = 0.
Proof.
  intros Hn Hy. apply Z.bits_inj'. intros i Hi. rewrite Z.land_spec, Z.bits_0.
  destruct (Z.lt_ge_cases i n) as [L|G].
  - rewrite Z.mul_pow2_bits_low by lia. reflexivity.
  - destruct (Z.eq_dec y 0) as [->|NZ]; [rewrite Z.bits_0; apply andb_false_r|].
    rewrite (Z.bits_above_log2 y i); [apply andb_false_r | lia |].
    assert (Z.log2 y < n) by (apply Z.log2_lt_pow2; lia). lia.
Qed.
Lemma lor_disjoint x y n : 0 <= n -> 0 <= y < 2 ^ n -> Z.lor (x * 2 ^ n) y = x * 2 ^ n + y.
Proof.
  intros Hn Hy. pose proof (land_disjoint x y n Hn Hy) as L0.
  rewrite (Z.add_nocarry_lxor _ _ L0), (Z.lxor_lor _ _ L0). reflexivity.
Qed.

Lemma lz64_spec h : 0 < h < W -> let n := lz64 h in 0 <= n <= 63 /\ 2 ^ (63 - n) <= h < 2 ^ (64 - n).
Proof.
  intros Hh. unfold lz64, bitlen. destruct (Z.eqb_spec h 0); [lia|].
  pose proof (Z.log2_spec h ltac:(lia)) as [L1 L2]. pose proof (Z.log2_nonneg h).
  assert (Z.log2 h < 64) by (apply Z.log2_lt_pow2; [lia|]; change (2 ^ 64) with W; lia).
  cbv zeta. replace (63 - (64 - (Z.log2 h + 1))) with (Z.log2 h) by lia.
  replace (64 - (64 - (Z.log2 h + 1))) with (Z.succ (Z.log2 h)) by lia. lia.
Qed.

Lemma pow_split n : 0 <= n <= 63 -> 2 ^ (63 - n) * 2 ^ n = 2 ^ 63 /\ 2 ^ (64 - n) = 2 * 2 ^ (63 - n) /\ 1 <= 2 ^ (63 - n) /\ 1 <= 2 ^ n.
Proof.
  intros Hn. rewrite <- Z.pow_add_r by lia. replace (63 - n + n) with 63 by lia.
  replace (64 - n) with (Z.succ (63 - n)) by lia. rewrite Z.pow_succ_r by lia.
  pose proof (Z.pow_pos_nonneg 2 (63 - n) ltac:(lia) ltac:(lia)). pose proof (Z.pow_pos_nonneg 2 n ltac:(lia) ltac:(lia)). lia.
Qed.

Lemma W_half : W = 2 * 2 ^ 63. Proof. reflexivity. Qed.

(* normalisation: the divisor's high limb vh in [a, 2a) is shifted up by b, taking in the top bits of the low limb *)
Lemma norm_divisor w vl vh a b : 1 <= a -> 1 <= b -> w = 2 * a * b -> 0 <= vl < w -> a <= vh < 2 * a ->
  let d := vh * b + vl / (2 * a) in
  (vh * b) mod w = vh * b /\ 0 <= vl / (2 * a) < b /\ a * b <= d < w /\ d * (2 * a) <= vl + w * vh < d * (2 * a) + 2 * a.
Proof.
  intros Ha Hb -> Hvl Hvh d.
  assert (L : a * b <= vh * b) by (apply Z.mul_le_mono_nonneg_r; lia).
  assert (U : (vh + 1) * b <= 2 * a * b) by (apply Z.mul_le_mono_nonneg_r; lia).
  assert (Q : 0 <= vl / (2 * a) < b) by (split; [apply Z.div_pos | apply Z.div_lt_upper_bound]; lia).
  pose proof (Z.div_mod vl (2 * a) ltac:(lia)). pose proof (Z.mod_pos_bound vl (2 * a) ltac:(lia)).
  split; [apply Z.mod_small; lia|]. unfold d. repeat split; try apply Q; lia.
Qed.

(* the dividend shifted down by one bit, for w = 2h *)
Lemma halve_limbs w h cl ch : 0 < h -> w = 2 * h -> 0 <= cl < w -> 0 <= ch < w ->
  (ch * h) mod w = ch mod 2 * h /\ 0 <= cl / 2 < h /\ 0 <= ch / 2 < h /\ 0 <= ch mod 2 * h + cl / 2 < w /\
  ch / 2 * w + (ch mod 2 * h + cl / 2) = (cl + w * ch) / 2.
Proof.
  intros Hh -> Hcl Hch.
  pose proof (Z.div_mod cl 2 ltac:(lia)). pose proof (Z.mod_pos_bound cl 2 ltac:(lia)). pose proof (Z.div_mod ch 2 ltac:(lia)).
  pose proof (Z.mod_pos_bound ch 2 ltac:(lia)).
  assert (0 <= ch mod 2 * h <= 1 * h) by (split; [apply Z.mul_nonneg_nonneg | apply Z.mul_le_mono_nonneg_r]; lia).
  split; [apply Z.mul_mod_distr_r; lia|].
  assert (0 <= cl / 2 < h) by (split; [apply Z.div_pos | apply Z.div_lt_upper_bound]; lia).
  assert (0 <= ch / 2 < h) by (split; [apply Z.div_pos | apply Z.div_lt_upper_bound]; lia).
  repeat split; try lia. apply Z.div_unique with (cl mod 2); lia.
Qed.

Lemma cmp_ge a b : wfc a -> wfc b -> (0 <=? cmp a b) = (val b <=? val a).
Proof.
  intros Ha Hb. rewrite (cmp_exact a b Ha Hb).
  destruct (Z.compare_spec (val a) (val b)); destruct (Z.leb_spec (val b) (val a)); try reflexivity; lia.
Qed.

(* the quotient plus one as the Go code builds it, carrying into the high limb *)
Lemma incr_limbs t : 0 <= t < W ->
  let ql := (t + 1) mod W in let q := mkCur ql (if ql =? 0 then 1 else 0) in wfc q /\ val q = t + 1.
Proof.
  intros Ht. assert (1 < W) by reflexivity. cbv zeta. unfold wfc, val; cbn [lo hi].
  destruct (Z.eq_dec (t + 1) W) as [->|].
  - rewrite Z.mod_same by lia. cbn [Z.eqb]. lia.
  - rewrite Z.mod_small by lia. destruct (Z.eqb_spec (t + 1) 0); lia.
Qed.

Definition correct_quotient (c v : cur) (tq : Z) : res unit (cur * cur) :=
  do vt <- mul_64 v tq;
  do r <- sub c vt;
  if 0 <=? cmp r v then
    let ql := (tq + 1) mod W in
    let qh := if ql =? 0 then 1 else 0 in
    do r' <- sub r v; Ok (mkCur ql qh, r')
  else Ok (mkCur tq 0, r).

(* a trial quotient that is exact or one too small is put right by at most one further subtraction *)
Lemma correct_quotient_exact c v tq : wfc c -> wfc v -> 0 <= tq < W ->
  val v * tq <= val c < val v * tq + 2 * val v ->
  exists q r, correct_quotient c v tq = Ok (q, r) /\ wfc q /\ wfc r /\ val q = val c / val v /\ val r = val c mod val v.
Proof.
  intros Hc Hv Ht [L U]. pose proof (val_range c Hc). unfold correct_quotient.
  destruct (mul64_checked v tq Hv Ht) as [(vt & -> & Wvt & Vvt) _]; [lia|]. cbn [bind].
  destruct (sub_checked c vt Hc Wvt) as [(r & -> & Wr & Vr) _]; [lia|]. cbn [bind].
  rewrite (cmp_ge r v Wr Hv). destruct (Z.leb_spec (val v) (val r)).
  - destruct (sub_checked r v Wr Hv) as [(r' & -> & Wr' & Vr') _]; [assumption|]. cbn [bind].
    destruct (incr_limbs tq Ht) as [Wq Vq]. eexists _, _. split; [reflexivity|]. split; [exact Wq|]. split; [exact Wr'|].
    rewrite Vq. split; [apply Z.div_unique_pos with (val r') | apply Z.mod_unique_pos with (tq + 1)]; lia.
  - eexists _, _. split; [reflexivity|]. split; [split; cbn [lo hi]; lia|]. split; [exact Wr|].
    unfold val at 1; cbn [lo hi].
    split; [rewrite Z.mul_0_r, Z.add_0_r; apply Z.div_unique_pos with (val r) | apply Z.mod_unique_pos with tq]; lia.
Qed.

Theorem quorem_big_exact c v : wfc c -> wfc v -> hi v <> 0 ->
  exists q r, quorem c v = Ok (q, r) /\ wfc q /\ wfc r /\ val q = val c / val v /\ val r = val c mod val v.
Proof.
  intros Hc Hv Hnz. pose proof Hc as [Hcl Hch]. pose proof Hv as [Hvl Hvh].
  destruct (lz64_spec (hi v) ltac:(lia)) as [Hn Hh]. destruct (pow_split _ Hn) as (Pab & P64n & Pa & Pb).
  unfold quorem. destruct (Z.eqb_spec (hi v) 0) as [|_]; [contradiction|]. cbv zeta. cbn [lo hi]. unfold shl64, shr64.
  rewrite P64n in *. set (n := lz64 (hi v)) in *. set (a := 2 ^ (63 - n)) in *. set (b := 2 ^ n) in *.
  assert (HW : W = 2 * a * b) by (rewrite <- Z.mul_assoc, Pab; exact W_half).
  (* v1.hi and u1 as numbers: the operands of each lor have no bit in common *)
  destruct (norm_divisor W (lo v) (hi v) a b Pa Pb HW Hvl Hh) as (E1 & B1 & V1 & DV). fold (val v) in DV.
  rewrite E1, (lor_disjoint _ _ n); [|lia | exact B1]. fold b. set (v1hi := hi v * b + lo v / (2 * a)) in *.
  destruct (halve_limbs W (2 ^ 63) (lo c) (hi c)) as (E2 & B2 & U1h & U1l & U1); [reflexivity | exact W_half | assumption..|].
  fold (val c) in U1. change (2 ^ 1) with 2. rewrite E2, Z.lor_comm, lor_disjoint; [|lia | exact B2].
  (* the trial quotient is the quotient by D, the divisor with its low bits cleared *)
  destruct (div64_exact (hi c / 2) (hi c mod 2 * 2 ^ 63 + lo c / 2) v1hi) as [-> _]; [lia | exact U1l|].
  cbn [bind fst snd]. rewrite U1, (Z.div_div (val c) 2 v1hi), Z.div_div by lia.
  replace (2 * v1hi * a) with (v1hi * (2 * a)) by ring. set (D := v1hi * (2 * a)) in *.
  pose proof (val_range c Hc) as RC.
  assert (HD : W * a <= D) by (replace (W * a) with (a * b * (2 * a)) by (rewrite HW; ring); apply Z.mul_le_mono_nonneg_r; lia).
  destruct (trial_quotient_gen W (val c) (val v) D a b Pa Pb HW RC HD DV) as [TQ1 TQ2].
  assert (VW : W * 1 <= val v) by (unfold val; pose proof (Z.mul_le_mono_nonneg_l 1 (hi v) W); lia).
  clearbody D v1hi. clear - Hc Hv RC VW TQ1 TQ2. pose proof W_pos.
  destruct (lowered_trial (val c) (val v) (val c / D)) as [T L]; [lia | lia | split; assumption|].
  assert (QW : val c / val v < W) by (apply Z.div_lt_upper_bound; [|pose proof (Z.mul_le_mono_nonneg_r W (val v) W)]; lia).
  apply correct_quotient_exact; [assumption | assumption | lia | exact L].
Qed.

(* Currency.Div / quoRem: exact for every 128-bit dividend and every non-zero 128-bit divisor *)
Theorem quorem_exact c v : wfc c -> wfc v -> val v <> 0 ->
  exists q r, quorem c v = Ok (q, r) /\ wfc q /\ wfc r /\ val q = val c / val v /\ val r = val c mod val v.
Proof.
  intros Hc Hv Hnz. destruct (Z.eq_dec (hi v) 0) as [E|NE]; [|apply quorem_big_exact; assumption].
  pose proof Hv as [Hvl Hvh]. assert (Vv : val v = lo v) by (unfold val; rewrite E; ring).
  unfold quorem. rewrite E. cbn [Z.eqb].
  destruct (quorem64_exact c (lo v) Hc ltac:(lia)) as (q & r & Eq & Wq & Vq & Vr). rewrite Eq. cbn [bind fst snd].
  exists q, (mkCur r 0). split; [reflexivity|]. split; [exact Wq|]. rewrite Vv.
  assert (0 <= r < lo v) by (rewrite Vr; apply Z.mod_pos_bound; lia).
  split; [unfold wfc; cbn [lo hi]; lia|]. split; [exact Vq|]. unfold val at 1; cbn [lo hi]. lia.
Qed.
Theorem quorem_zero c v : val v = 0 -> wfc v -> quorem c v = Panic PDivZero.
Proof.
  intros E [Hl Hh]. unfold val in E. pose proof W_pos. pose proof (Z.mul_nonneg_nonneg W (hi v)). pose proof (Z.mul_eq_0 W (hi v)).
  assert (hi v = 0 /\ lo v = 0) as [Eh El] by lia. unfold quorem. rewrite Eh, El. cbn [Z.eqb]. rewrite quorem64_zero. reflexivity.
Qed.
Theorem div_exact c v : wfc c -> wfc v -> val v <> 0 -> exists q, div c v = Ok q /\ wfc q /\ val q = val c / val v.
Proof.
  intros Hc Hv Hnz. destruct (quorem_exact c v Hc Hv Hnz) as (q & r & E & Wq & _ & Vq & _).
  exists q. unfold div. rewrite E. cbn [bind fst]. auto.
Qed.
