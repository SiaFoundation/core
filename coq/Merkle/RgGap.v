(* Gaps of multi-range (diff) proofs: the greedy decomposition of [i, j) into aligned subtrees takes at most 128 steps
   (heights strictly increase while the alignment of i is the limit, then strictly decrease), so the model's fuel never
   runs out; and inserting the gap's subtree roots moves an accumulator over the first i leaves to one over the first j. *)
From Coq Require Import List NArith Arith Bool Lia.
From Sia Require Import Prim.Tok Merkle.Tree Merkle.Forest Merkle.Rhp Merkle.RhpProofs Merkle.RhpRoot.
From Sia Require Import Merkle.RgBits Merkle.RgAppend Merkle.RgRpv1 Merkle.RgLoops.
Import ListNotations.
Local Open Scope N_scope.

Definition tzz (i : N) : N := if i =? 0 then 64 else ctz i.
(* the potential: while alignment limits the size, 128 - alignment; afterwards, the bit length of what is left *)
Definition phi (i j : N) : N := if tzz i <=? N.log2 (j - i) then 128 - tzz i else N.log2 (j - i) + 1.

Lemma phi_bound i j : j < 2 ^ 64 -> phi i j <= 128.
Proof.
  intros Hj. unfold phi. destruct (N.leb_spec (tzz i) (N.log2 (j - i))); [lia|].
  destruct (N.eq_dec (j - i) 0) as [Z|NZ]; [rewrite Z; cbn; lia|].
  assert (N.log2 (j - i) < 64) by (apply N.log2_lt_pow2; lia). lia.
Qed.

Lemma phi_pos i j : i < j -> j < 2 ^ 64 -> 1 <= phi i j.
Proof.
  intros L Hj. unfold phi. destruct (N.leb_spec (tzz i) (N.log2 (j - i))); [|lia]. assert (N.log2 (j - i) < 64) by (apply N.log2_lt_pow2; lia). lia.
Qed.

Lemma log2_sub_lt r b : N.log2 r = b -> 0 < r -> 0 < r - 2 ^ b -> N.log2 (r - 2 ^ b) < b.
Proof.
  intros L R R'. pose proof (N.log2_spec r R) as [M1 M2]. rewrite L in M1, M2. rewrite N.pow_succ_r' in M2.
  apply N.log2_lt_pow2; lia.
Qed.

Lemma phi_step i j : i < j -> j < 2 ^ 64 -> i + next_subtree_size i j < j ->
  phi (i + next_subtree_size i j) j < phi i j.
Proof.
  intros Hij Hj Hnext. destruct (nss_spec i j Hij Hj) as (h & Es & Hh & (k & Dv) & Fit & _ & Eh). rewrite Es in *.
  fold (tzz i) in Eh. set (t := tzz i) in *. set (b := N.log2 (j - i)) in *.
  assert (Hb : b < 64) by (apply N.log2_lt_pow2; clear - Hij Hj; lia).
  pose proof (pow2_pos h) as P.
  unfold phi at 2. fold t b. destruct (N.leb_spec t b) as [Le|Gt].
  - (* alignment is the limit: the next position is aligned to at least t + 1 *)
    assert (h = t) by (clear - Eh Le; lia). clear Eh. subst h.
    assert (NZ : i <> 0). { intros Z. assert (T64 : t = 64) by (unfold t, tzz; rewrite Z; reflexivity). clear - T64 Le Hb. lia. }
    assert (Et : t = ctz i) by (unfold t, tzz; destruct (N.eqb_spec i 0); [contradiction | reflexivity]).
    destruct (ctz_spec i ltac:(clear - NZ; lia)) as (q & E). rewrite <- Et in E.
    assert (T' : t + 1 <= tzz (i + 2 ^ t)).
    { unfold tzz. destruct (N.eqb_spec (i + 2 ^ t) 0) as [Z|_]; [clear - Z P; lia|]. apply ctz_divides; [clear - P; lia|]. exists (q + 1). rewrite N.pow_add_r. change (2 ^ 1) with 2. clear - E. lia. }
    assert (B' : N.log2 (j - (i + 2 ^ t)) <= b) by (apply N.log2_le_mono; clear; lia).
    unfold phi. clearbody t b. destruct (N.leb_spec (tzz (i + 2 ^ t)) (N.log2 (j - (i + 2 ^ t)))) as [A|A]; clear - Le Hb T' B' A; lia.
  - (* the remaining length is the limit: its top bit goes, and the new position is aligned to exactly that bit *)
    assert (h = b) by (clear - Eh Gt; lia). clear Eh. subst h.
    assert (B' : N.log2 (j - (i + 2 ^ b)) < b).
    { replace (j - (i + 2 ^ b)) with (j - i - 2 ^ b) by (clear; lia). apply log2_sub_lt; [reflexivity | clear - Hij; lia | clear - Hnext; lia]. }
    assert (T' : tzz (i + 2 ^ b) = b).
    { unfold tzz. destruct (N.eqb_spec (i + 2 ^ b) 0) as [Z|_]; [clear - Z P; lia|]. apply ctz_add_pow. unfold t, tzz in Gt. destruct (N.eqb_spec i 0); [left; assumption | right; exact Gt]. }
    unfold phi. rewrite T'. clearbody t b. destruct (N.leb_spec b (N.log2 (j - (i + 2 ^ b)))) as [A|A]; clear - Gt Hb B' A; lia.
Qed.

Section Gap.
Variable H : bytes -> bytes.
Notation node := (Rhp.node H).
Notation mroot := (Rhp.mroot H).
Notation range_subtrees := (Rhp.range_subtrees H).
Notation range_subtrees_off := (Rhp.range_subtrees_off H).
Notation build_range := (Rhp.build_range H).
Notation insert_range := (Rhp.insert_range H).
Notation ins0 := (fun a h => Rhp.insert_node H h 0 a).

Lemma subtrees_stable (ls : list hash) j : j < 2 ^ 64 -> forall f1 f2 i, i < j -> (N.to_nat (phi i j) <= f1)%nat -> (N.to_nat (phi i j) <= f2)%nat ->
  range_subtrees f1 ls i j = range_subtrees f2 ls i j.
Proof.
  intros Hj. induction f1 as [|f1 IH]; intros f2 i L F1 F2; pose proof (phi_pos i j L Hj) as P1; [lia|].
  destruct f2 as [|f2]; [lia|]. cbn [Rhp.range_subtrees]. destruct (N.ltb_spec i j); [|lia]. cbv zeta. f_equal.
  destruct (N.ltb_spec (i + next_subtree_size i j) j) as [L2|G2].
  - pose proof (phi_step i j L Hj L2). apply IH; lia.
  - rewrite !subtrees_nil by exact G2. reflexivity.
Qed.

Lemma subtrees_length (ls : list hash) j : j < 2 ^ 64 -> forall f i, i < j -> (length (range_subtrees f ls i j) <= N.to_nat (phi i j))%nat.
Proof.
  intros Hj. induction f as [|f IH]; intros i L; cbn [Rhp.range_subtrees]; [cbn; lia|].
  destruct (N.ltb_spec i j); [|lia]. cbv zeta. cbn [length]. pose proof (phi_pos i j L Hj) as P1.
  destruct (N.ltb_spec (i + next_subtree_size i j) j) as [L2|G2].
  - pose proof (phi_step i j L Hj L2). specialize (IH _ L2). lia.
  - rewrite subtrees_nil by exact G2. cbn [length]. lia.
Qed.

Lemma subtrees_off0 (ls : list hash) j : forall f i, range_subtrees f ls i j = range_subtrees_off f ls 0 i j.
Proof. induction f as [|f IH]; intros i; cbn [Rhp.range_subtrees Rhp.range_subtrees_off]; [reflexivity|]. rewrite N.sub_0_r, IH. reflexivity. Qed.

(* lv holds the leaf hashes from leaf off on (RangeProofVerifier reads a range of a sector; off = 0 for a whole list). The
   accumulator need only count i leaves: each subtree root then stands for its block of leaves inserted one by one. *)
Lemma gap_run (lv : list hash) off j : j < 2 ^ 64 -> j <= off + N.of_nat (length lv) -> forall f i acc rest,
  off <= i -> i <= j -> (i < j -> (N.to_nat (phi i j) <= f)%nat) -> dval acc = i ->
  insert_range f acc (range_subtrees_off f lv off i j ++ rest) i j = (fold_left ins0 (slice lv (i - off) (j - i)) acc, rest).
Proof.
  intros Hj Hl. induction f as [|f IH]; intros i acc rest Ho Hi En Dv;
    (destruct (N.eq_dec i j) as [->|Ne]; [rewrite subtrees_off_nil, N.sub_diag by lia; apply insert_range_done, N.le_refl|]);
    [assert (L : i < j) by (clear - Hi Ne; lia); pose proof (phi_pos i j L Hj) as Pp; specialize (En L); clear - Pp En; lia|].
  assert (L : i < j) by (clear - Hi Ne; lia). destruct (nss_spec i j L Hj) as (h & Es & _ & (q & Dvd) & Fit & Tz & _).
  cbn [Rhp.range_subtrees_off]. rewrite (proj2 (N.ltb_lt i j) L). cbv zeta. cbn [app Rhp.insert_range]. rewrite (proj2 (N.ltb_lt i j) L). cbv zeta. rewrite Es, Tz.
  set (blk := slice lv (i - off) (2 ^ h)).
  assert (Lb : length blk = (2 ^ N.to_nat h)%nat) by (unfold blk; rewrite slice_length by (clear - Fit Hl Ho; lia); apply pow_nat).
  rewrite <- (ins_block H (N.to_nat h) blk acc Lb) by (apply (dval_lowfree H _ acc q); rewrite N2Nat.id, Dv; exact Dvd).
  rewrite (IH (i + 2 ^ h) (fold_left ins0 blk acc)); [| clear - Ho; lia | exact Fit | |].
  - rewrite <- fold_left_app. unfold blk. replace (i + 2 ^ h - off) with (i - off + 2 ^ h) by (clear - Ho; lia). rewrite slice_app. do 3 f_equal. clear - Fit. lia.
  - intros L2. pose proof (phi_step i j L Hj ltac:(rewrite Es; exact L2)) as P. rewrite Es in P. specialize (En L). clear - P En. lia.
  - rewrite (dval_fold H), Dv, Lb, <- pow_nat, N2Nat.id. reflexivity.
Qed.

Lemma gap_sync (ls : list hash) i j acc rest : i <= j -> j <= N.of_nat (length ls) -> N.of_nat (length ls) < 2 ^ 64 ->
  Repr hash node (firstn (N.to_nat i) ls) acc ->
  exists acc', insert_range FUEL acc (range_subtrees FUEL ls i j ++ rest) i j = (acc', rest) /\ Repr hash node (firstn (N.to_nat j) ls) acc'.
Proof.
  intros Hij Hjn Hn R. eexists. split.
  - rewrite subtrees_off0. apply (gap_run ls 0 j); try lia.
    + intros _. pose proof (phi_bound i j ltac:(lia)). unfold FUEL. lia.
    + rewrite (repr_dval H _ _ R), firstn_length. lia.
  - rewrite N.sub_0_r. replace j with (i + (j - i)) at 1 by lia. rewrite <- firstn_slice. apply acc_digits_repr. exact R.
Qed.
End Gap.
