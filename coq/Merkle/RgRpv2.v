(* rhp/v2 RangeProofVerifier (streaming verification of a leaf range of one sector) is VerifySectorRangeProof over the leaf
   hashes of the range: the verifier inserts the roots of the aligned subtrees of the data it read where the plain verifier
   inserts the leaf hashes one by one. *)
From Coq Require Import List NArith Arith Bool Lia.
From Sia Require Import Prim.Tok Merkle.Tree Merkle.Forest Merkle.Rhp Merkle.RhpProofs Merkle.RhpRoot.
From Sia Require Import Merkle.RgBits Merkle.RgCount Merkle.RgLoops Merkle.RgFinal Merkle.RgLeft Merkle.RgRightCount Merkle.RgComplete Merkle.RgSound Merkle.RgSound2 Merkle.RgAppend Merkle.RgGap Merkle.RgMulti.
From Sia Require Import Merkle.RgRpv1.
Import ListNotations.
Local Open Scope N_scope.

Section Rpv.
Variable H : bytes -> bytes.
Notation node := (Rhp.node H).
Notation mroot := (Rhp.mroot H).
Notation insert_range := (Rhp.insert_range H).
Notation ins := (Rhp.insert_node H).
Notation ins0 := (fun a h => Rhp.insert_node H h 0 a).

Notation range_subtrees_off := (Rhp.range_subtrees_off H).
Notation rpv_verify := (Rhp.rpv_verify H).

(* a phase that has enough proof hashes consumes exactly one per subtree and leaves the accumulator counting j leaves *)
Lemma phase_dval j : j < 2 ^ 64 -> forall f i acc p, i <= j -> (i < j -> (N.to_nat (phi i j) <= f)%nat) -> dval acc = i ->
  gaps_size f i j <= N.of_nat (length p) ->
  exists acc', insert_range f acc p i j = (acc', skipn (N.to_nat (gaps_size f i j)) p) /\ dval acc' = j.
Proof.
  intros Hj. induction f as [|f IH]; intros i acc p Hi En Dv Gs.
  - destruct (N.ltb_spec i j) as [L|G]; [pose proof (phi_pos i j L Hj) as Pp; specialize (En L); clear - Pp En; lia|]. exists acc. cbn. split; [reflexivity | clear - Hi G Dv; lia].
  - cbn [gaps_size] in *. destruct (N.ltb_spec i j) as [L|G].
    + destruct p as [|x r]; [cbn [length] in Gs; clear - Gs; lia|]. cbn [Rhp.insert_range]. rewrite (proj2 (N.ltb_lt _ _) L). cbv zeta.
      destruct (nss_spec i j L Hj) as (h & Es & Hh & (q & Dvd) & Fit & Tz & _). rewrite Es, Tz in *.
      assert (LF : lowfree (N.to_nat h) acc) by (apply (dval_lowfree H (N.to_nat h) acc q); rewrite N2Nat.id, Dv; exact Dvd).
      destruct (IH (i + 2 ^ h) (ins x (N.to_nat h) acc) r Fit) as (acc' & E & D').
      * intros L2. pose proof (phi_step i j L Hj ltac:(rewrite Es; exact L2)) as P. rewrite Es in P. specialize (En L). clear - P En. lia.
      * rewrite (dval_ins H) by exact LF. rewrite N2Nat.id, Dv. reflexivity.
      * cbn [length] in Gs. clear - Gs. lia.
      * exists acc'. split; [|exact D']. rewrite E. f_equal.
        replace (N.to_nat (1 + gaps_size f (i + 2 ^ h) j)) with (S (N.to_nat (gaps_size f (i + 2 ^ h) j))) by lia. reflexivity.
    + assert (Dj : dval acc = j) by (clear - Hi G Dv; lia). exists acc. cbn [Rhp.insert_range]. destruct p; [split; [reflexivity | exact Dj]|]. rewrite (proj2 (N.ltb_ge _ _) G). split; [reflexivity | exact Dj].
Qed.

Lemma cnt_left n s : s <= n -> n < 2 ^ 64 -> gaps_size FUEL 0 s = popcount s.
Proof using H. intros Hs Hn. apply gaps_left0; [lia | unfold FUEL; lia]. Qed.

Lemma nss_pow2 k i : 0 < i -> i < 2 ^ k -> k < 64 -> next_subtree_size i (2 ^ k) = 2 ^ ctz i /\ i + 2 ^ ctz i <= 2 ^ k.
Proof.
  intros Hi Hik Hk. pose proof (ctz_fit i k (conj Hi Hik)) as Fit. split; [|exact Fit].
  apply nss_aligned; [exact Hi | exact Fit | apply N.pow_lt_mono_r; [reflexivity | exact Hk]].
Qed.

(* for a power-of-two count the right-hand builder never clips: it produces the subtrees of [e, n) *)
Lemma build_right_pow2 k (ls : list hash) : k <= 30 -> forall f e, 0 < e -> e <= 2 ^ k ->
  Rhp.build_range H f ls (2 ^ k) e (2 ^ 31 - 1) = Rhp.range_subtrees H f ls e (2 ^ k).
Proof.
  intros K30. assert (Bn : 2 ^ k <= 2 ^ 30) by (apply N.pow_le_mono_r; lia).
  induction f as [|f IH]; intros e He Hen; cbn [Rhp.build_range Rhp.range_subtrees]; [reflexivity|].
  destruct (N.ltb_spec e (2 ^ k)) as [L|G].
  - rewrite (proj2 (N.ltb_lt e (2 ^ 31 - 1))) by (clear - L Bn; lia). cbn [andb]. cbv zeta.
    destruct (nss_right e (2 ^ k) He L Bn) as (E1 & _ & _). destruct (nss_pow2 k e He L ltac:(clear - K30; lia)) as (E2 & Fit). rewrite E1, E2.
    rewrite (proj2 (N.ltb_ge _ _) Fit). f_equal. apply IH; [clear - He; lia | exact Fit].
  - rewrite andb_false_r. reflexivity.
Qed.

(* towards a power of two the gap's subtrees are the aligned ones, counted by the verifier's mask formula *)
Lemma cnt_right k e : 1 <= k -> k <= 30 -> 0 < e -> e <= 2 ^ k -> gaps_size FUEL e (2 ^ k) = rterm (2 ^ k) e.
Proof using H.
  intros K1 K30 He Hen. assert (B : 2 ^ k < 2 ^ 64) by (apply N.pow_lt_mono_r; lia).
  assert (G : forall f e, 0 < e -> e <= 2 ^ k -> rterm (2 ^ k) e <= N.of_nat f -> gaps_size f e (2 ^ k) = rterm (2 ^ k) e).
  { clear e He Hen. induction f as [|f IH]; intros e He Hen Hf; cbn [gaps_size]; [lia|].
    destruct (N.ltb_spec e (2 ^ k)) as [L|G]; [|replace e with (2 ^ k) by lia; symmetry; apply rterm_end].
    destruct (nss_pow2 k e He L ltac:(lia)) as [-> Fit]. rewrite (rterm_next (2 ^ k) e) in Hf |- * by lia.
    destruct (N.leb_spec (2 ^ k) (e + 2 ^ ctz e)) as [Last|More]; [|rewrite IH by lia; reflexivity].
    replace (e + 2 ^ ctz e) with (2 ^ k) by lia. destruct f; cbn [gaps_size]; rewrite ?N.ltb_irrefl; reflexivity. }
  apply G; [exact He | exact Hen|]. pose proof (rterm_le_64 (2 ^ k) e). unfold FUEL. lia.
Qed.

(* the last phase: stopping at n or going on towards 2^64 - 1 is the same when no hash is left at n *)
Lemma phase3_eq k : 1 <= k -> k <= 30 -> forall f e acc p, 0 < e -> e <= 2 ^ k -> N.of_nat (length p) <= gaps_size f e (2 ^ k) ->
  insert_range f acc p e (2 ^ k) = insert_range f acc p e (Rhp.W - 1).
Proof.
  intros K1 K30. assert (Bn : 2 ^ k <= 2 ^ 30) by (apply N.pow_le_mono_r; lia).
  induction f as [|f IH]; intros e acc p He Hen Lp; [reflexivity|]. cbn [Rhp.insert_range gaps_size] in *.
  destruct p as [|x r]; [reflexivity|]. destruct (N.ltb_spec e (2 ^ k)) as [L|G]; [|cbn [length] in Lp; clear - Lp; lia].
  rewrite (proj2 (N.ltb_lt e (Rhp.W - 1))) by (unfold Rhp.W; clear - L Bn; lia). cbv zeta.
  destruct (nss_right e (2 ^ k) He L Bn) as (_ & E1 & _). destruct (nss_pow2 k e He L ltac:(clear - K30; lia)) as (E2 & Fit). rewrite E1, E2 in *.
  apply IH; [clear - He; lia | exact Fit | cbn [length] in Lp; clear - Lp; lia].
Qed.

Theorem rpv_is_range (k : N) (proof lv : list hash) s e root : 1 <= k -> k <= 30 -> s < e -> e <= 2 ^ k -> N.of_nat (length lv) = e - s ->
  rpv_verify proof lv s e (2 ^ k) root = verify_range_proof H proof lv s e (2 ^ k) root.
Proof.
  intros K1 K30 Hse Hen Ll. set (n := 2 ^ k) in *. assert (Bn : n <= 2 ^ 30) by (apply N.pow_le_mono_r; lia).
  pose proof (pow2_pos k : 0 < n) as Pn.
  unfold Rhp.rpv_verify, verify_range_proof. destruct (N.eqb_spec n 0); [lia|].
  destruct (N.eqb_spec (N.of_nat (length proof)) (range_proof_size n s e)) as [Lp|]; [|reflexivity]. cbn [negb].
  assert (Sz : range_proof_size n s e = popcount s + rterm n e) by reflexivity.
  assert (S64 : s < 2 ^ 64) by (clear - Hse Hen Bn; lia). assert (E64 : e < 2 ^ 64) by (clear - Hen Bn; lia). assert (E0 : 0 < e) by (clear - Hse; lia).
  assert (Fu : forall i j, j < 2 ^ 64 -> i < j -> (N.to_nat (phi i j) <= FUEL)%nat) by (intros i j Hj _; pose proof (phi_bound i j Hj); unfold FUEL; lia).
  pose proof (cnt_left n s ltac:(clear - Hse Hen; lia) ltac:(clear - Bn; lia)) as CL. pose proof (cnt_right k e K1 K30 E0 Hen) as CR. fold n in CR.
  destruct (phase_dval s S64 FUEL 0 [] proof (N.le_0_l s) (Fu 0 s S64) eq_refl ltac:(clear - Lp Sz CL; lia)) as (acc1 & E1 & D1).
  rewrite E1. rewrite CL.
  rewrite <- (app_nil_r (range_subtrees_off FUEL lv s s e)).
  rewrite (gap_run H lv s e E64 ltac:(clear - Ll Hse; lia) FUEL s acc1 [] (N.le_refl s) (N.lt_le_incl _ _ Hse) (Fu s e E64) D1).
  rewrite N.sub_diag, slice_all by (clear - Ll; lia).
  rewrite (phase3_eq k K1 K30 FUEL e _ _ E0 Hen); [reflexivity|].
  fold n. rewrite CR, skipn_length. clear - Lp Sz. lia.
Qed.
End Rpv.

(* hence, for the leaf hashes ls of a whole sector (2^k of them): the plain proof is accepted together with the leaf hashes
   of the range, and what is accepted is the true leaf hashes with exactly that proof, or a collision is exhibited *)
Section RpvCor.
Variable H : bytes -> bytes.
Theorem rpv_complete (k : N) (ls : list hash) s e : 1 <= k -> k <= 30 -> N.of_nat (length ls) = 2 ^ k -> s < e -> e <= 2 ^ k ->
  Rhp.rpv_verify H (build_range_proof H ls s e) (slice ls s (e - s)) s e (2 ^ k) (Rhp.mroot H ls) = true.
Proof.
  intros K1 K30 Ll Hse Hen. assert (Bn : 2 ^ k <= 2 ^ 30) by (apply N.pow_le_mono_r; lia).
  pose proof (pow2_pos k) as Pn.
  rewrite (rpv_is_range H k) by (try assumption; rewrite slice_length by lia; lia).
  pose proof (range_proof_complete H ls s e) as C. cbv zeta in C. rewrite Ll in C. apply C; lia.
Qed.
Theorem rpv_sound (k : N) (ls proof lv : list hash) s e : 1 <= k -> k <= 30 -> N.of_nat (length ls) = 2 ^ k -> s < e -> e <= 2 ^ k ->
  N.of_nat (length lv) = e - s -> Rhp.rpv_verify H proof lv s e (2 ^ k) (Rhp.mroot H ls) = true ->
  (lv = slice ls s (e - s) /\ proof = build_range_proof H ls s e) \/ RgSound.NodeCollision H.
Proof.
  intros K1 K30 Ll Hse Hen Lv V. assert (Bn : 2 ^ k <= 2 ^ 30) by (apply N.pow_le_mono_r; lia).
  pose proof (pow2_pos k) as Pn.
  rewrite (rpv_is_range H k) in V by assumption.
  pose proof (RgSound2.range_proof_sound H ls s e proof lv) as S. rewrite Ll in S. apply S; try assumption; lia.
Qed.
End RpvCor.
