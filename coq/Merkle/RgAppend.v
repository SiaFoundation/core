(* RHP append proofs (rhp/v4 BuildAppendProof / VerifyAppendSectorsProof, rhp/v2 VerifyAppendProof): completeness and
   soundness against the plainly defined root, for every list of existing roots and every batch of appended roots. *)
From Coq Require Import List NArith Arith Bool Lia.
From Sia Require Import Prim.Tok Merkle.Tree Merkle.Forest Merkle.Rhp Merkle.RhpProofs Merkle.RhpRoot Merkle.RgBits Merkle.RgSound.
Import ListNotations.
Local Open Scope N_scope.

(* Rhp.fill_trees over any carrier *)
Section Gen.
Variable X : Type.
Fixpoint pfill (dflt : X) (bits : nat) (k n : N) (ths : list X) : list (option X) :=
  match bits with
  | O => []
  | S b => if N.testbit n k then
             match ths with
             | t :: rest => Some t :: pfill dflt b (k + 1) n rest
             | [] => Some dflt :: pfill dflt b (k + 1) n []
             end
           else None :: pfill dflt b (k + 1) n ths
  end.
Definition somes (ds : list (option X)) : list X := List.concat (map (fun d => match d with Some t => [t] | None => [] end) ds).
Fixpoint dval (ds : list (option X)) : N :=
  match ds with [] => 0 | d :: r => (match d with Some _ => 1 | None => 0 end) + 2 * dval r end.
(* no trailing empty digit: such a list is no longer than the bit length of its value (ntn_length) *)
Fixpoint ntn (ds : list (option X)) : Prop :=
  match ds with [] => True | d :: r => match r with [] => d <> None | _ => ntn r end end.
End Gen.
Arguments pfill {X}. Arguments somes {X}. Arguments dval {X}. Arguments ntn {X}.

Lemma hom_fill (X Y : Type) (f : X -> Y) dflt bits : forall k n ths,
  map (option_map f) (pfill dflt bits k n ths) = pfill (f dflt) bits k n (map f ths).
Proof.
  induction bits as [|b IH]; intros k n ths; cbn [pfill map]; [reflexivity|].
  destruct (N.testbit n k); [|cbn [map option_map]; f_equal; apply IH].
  destruct ths as [|t rest]; cbn [map option_map]; f_equal; [exact (IH (k + 1) n []) | apply IH].
Qed.

Lemma somes_app (X : Type) (a b : list (option X)) : somes (a ++ b) = somes a ++ somes b.
Proof. unfold somes. rewrite map_app, concat_app. reflexivity. Qed.
Lemma somes_nones (X : Type) k : somes (repeat (@None X) k) = [].
Proof. induction k as [|k IH]; [reflexivity | exact IH]. Qed.

Section Append.
Variable H : bytes -> bytes.
Notation node := (Rhp.node H).
Notation mroot := (Rhp.mroot H).
Notation pa_root := (Rhp.pa_root H).
Notation pa_root_aux := (Rhp.pa_root_aux H).
Notation carry := (Rhp.carry H).
Notation ins0 := (fun a h => insert_node H h 0 a).

Lemma fill_p bits : forall k n ths, fill_trees bits k n ths = pfill zero_hash bits k n ths.
Proof.
  induction bits as [|b IH]; intros k n ths; cbn [fill_trees pfill]; [reflexivity|].
  destruct (N.testbit n k); [destruct ths; f_equal; apply IH | f_equal; apply IH].
Qed.

Lemma value_dval (ds : list (option hash)) : forall k, N.of_nat (value hash k ds) = 2 ^ N.of_nat k * dval ds.
Proof.
  induction ds as [|[t|] ds IH]; intros k; cbn [value dval].
  - lia.
  - rewrite Nat2N.inj_add, IH, Nat2N.inj_pow. replace (N.of_nat (S k)) with (N.of_nat k + 1) by lia. rewrite N.pow_add_r. change (N.of_nat 2) with 2. rewrite N.pow_1_r. ring.
  - rewrite IH. replace (N.of_nat (S k)) with (N.of_nat k + 1) by lia. rewrite N.pow_add_r, N.pow_1_r. ring.
Qed.
Lemma repr_dval L ds : Repr hash node L ds -> dval ds = N.of_nat (length L).
Proof. intros R. rewrite (acc_count H L ds R), value_dval. change (N.of_nat 0) with 0. rewrite N.pow_0_r. lia. Qed.

Lemma fill_zero bits : forall k n (ths : list hash), (forall j, k <= j -> N.testbit n j = false) -> pfill zero_hash bits k n ths = repeat None bits.
Proof.
  induction bits as [|b IH]; intros k n ths Z; cbn [pfill repeat]; [reflexivity|].
  rewrite (Z k) by lia. f_equal. apply IH. intros j Hj. apply Z. lia.
Qed.

Lemma fill_honest (ds : list (option hash)) : forall k n bits, N.shiftr n k = dval ds -> (length ds <= bits)%nat ->
  pfill zero_hash bits k n (somes ds) = ds ++ repeat None (bits - length ds).
Proof using H.
  (* [using H], here and in the files that build on this one: outside the section the lemma takes the hash function as its
     first argument although the statement does not mention it, and that is how it is applied (RgStruct.repr_lowfree,
     RgRpv2.phase_dval, Props/C16.v) *)
  induction ds as [|d ds IH]; intros k n bits E L.
  - cbn [somes map concat app length]. rewrite Nat.sub_0_r. apply fill_zero. intros j Hj.
    replace j with ((j - k) + k) by lia. rewrite <- N.shiftr_spec by lia. rewrite E. cbn [dval]. apply N.bits_0.
  - destruct bits as [|b]; [cbn in L; lia|]. cbn [length] in L. cbn [pfill].
    assert (T : N.testbit n k = match d with Some _ => true | None => false end).
    { replace k with (0 + k) at 1 by lia. rewrite <- N.shiftr_spec by lia. rewrite E. cbn [dval].
      destruct d; [rewrite (N.add_comm 1), N.testbit_odd_0; reflexivity | rewrite N.add_0_l, N.testbit_even_0; reflexivity]. }
    assert (E' : N.shiftr n (k + 1) = dval ds).
    { rewrite <- N.shiftr_shiftr, E. cbn [dval]. rewrite N.shiftr_div_pow2, N.pow_1_r. destruct d; [|rewrite N.add_0_l, N.mul_comm, N.div_mul by lia; reflexivity].
      rewrite N.add_comm, N.mul_comm, N.div_add_l by lia. change (1 / 2) with 0. lia. }
    rewrite T. destruct d as [t|]; cbn [somes map concat app length Nat.sub]; f_equal; (apply IH; [exact E' | lia]).
Qed.

Lemma root_trail ds : forall acc k, pa_root_aux acc (ds ++ repeat None k) = pa_root_aux acc ds.
Proof.
  induction ds as [|[t|] ds IH]; intros acc k; cbn [app Rhp.pa_root_aux]; [|apply IH|apply IH].
  induction k as [|k IHk]; [reflexivity | exact IHk].
Qed.
Lemma carry_trail ds : forall h k, exists k', carry h (ds ++ repeat None k) = carry h ds ++ repeat None k'.
Proof.
  induction ds as [|[t|] ds IH]; intros h k; cbn [app Rhp.carry].
  - destruct k as [|k]; [exists 0%nat; reflexivity | exists k; reflexivity].
  - destruct (IH (node t h) k) as [k' E]. exists k'. rewrite E. reflexivity.
  - exists k. reflexivity.
Qed.
Lemma fold_trail xs : forall ds k, exists k', fold_left ins0 xs (ds ++ repeat None k) = fold_left ins0 xs ds ++ repeat None k'.
Proof.
  induction xs as [|x xs IH]; intros ds k; cbn [fold_left]; [exists k; reflexivity|].
  cbn [insert_node]. destruct (carry_trail ds x k) as [k1 E]. rewrite E. apply IH.
Qed.

Lemma carry_nonempty h ds : carry h ds <> [].
Proof. destruct ds as [|[t|] ds]; discriminate. Qed.
Lemma carry_ntn ds : forall h, ntn ds -> ntn (carry h ds).
Proof.
  induction ds as [|[t|] ds IH]; intros h N0; cbn [Rhp.carry].
  - cbn. discriminate.
  - cbn [ntn]. pose proof (carry_nonempty (node t h) ds) as NE. destruct (carry (node t h) ds) as [|c cs] eqn:Ec; [contradiction|].
    rewrite <- Ec. apply IH. cbn [ntn] in N0. destruct ds; [exact I | exact N0].
  - cbn [ntn] in *. destruct ds; [discriminate | exact N0].
Qed.
Lemma fold_ntn xs : forall ds, ntn ds -> ntn (fold_left ins0 xs ds).
Proof. induction xs as [|x xs IH]; intros ds N0; cbn [fold_left]; [exact N0|]. apply IH. cbn [insert_node]. apply carry_ntn. exact N0. Qed.
Lemma ntn_bound (ds : list (option hash)) : ntn ds -> ds <> [] -> 2 ^ N.of_nat (length ds - 1) <= dval ds.
Proof.
  induction ds as [|d ds IH]; intros N0 NE; [contradiction|]. cbn [ntn] in N0. destruct ds as [|d' ds'].
  - destruct d; [cbn; lia | contradiction].
  - specialize (IH N0 ltac:(discriminate)). cbn [length dval] in *.
    replace (N.of_nat (S (S (length ds')) - 1)) with (N.of_nat (S (length ds') - 1) + 1) by lia. rewrite N.pow_add_r.
    destruct d; lia.
Qed.
Lemma ntn_length (ds : list (option hash)) : ntn ds -> (length ds <= N.to_nat (bitlen (dval ds)))%nat.
Proof using H.
  intros N0. destruct ds as [|d r]; [cbn; lia|]. pose proof (ntn_bound _ N0 ltac:(discriminate)) as B. cbn [length] in *.
  destruct (N.le_gt_cases (bitlen (dval (d :: r))) (N.of_nat (S (length r) - 1))) as [Le|Gt]; [apply bitlen_le in Le; lia | lia].
Qed.

Section Honest.
Variable ls : list hash.
Let ds0 := fold_left ins0 ls [].
Let n := N.of_nat (length ls).
Lemma honest_repr : Repr hash node ls ds0.
Proof. apply (acc_digits_repr H [] [] ls). apply repr_nil. Qed.
Lemma honest_val : dval ds0 = n.
Proof. apply repr_dval. exact honest_repr. Qed.
Lemma honest_fill bits : (length ds0 <= bits)%nat -> fill_trees bits 0 n (somes ds0) = ds0 ++ repeat None (bits - length ds0).
Proof. intros L. rewrite fill_p. apply fill_honest; [rewrite N.shiftr_0_r; symmetry; exact honest_val | exact L]. Qed.
Lemma honest_len_v4 : (length ds0 <= N.to_nat (bitlen n))%nat.
Proof. rewrite <- honest_val. apply ntn_length. apply fold_ntn. exact I. Qed.
Lemma honest_len_64 : n < 2 ^ 64 -> (length ds0 <= 64)%nat.
Proof. intros B%bitlen_le. pose proof honest_len_v4. lia. Qed.
Lemma honest_old bits : (length ds0 <= bits)%nat -> pa_root (fill_trees bits 0 n (somes ds0)) = mroot ls.
Proof. intros L. rewrite (honest_fill bits L). unfold Rhp.pa_root. rewrite root_trail. apply (repr_root H). exact honest_repr. Qed.
Lemma honest_new bits app : (length ds0 <= bits)%nat -> pa_root (fold_left ins0 app (fill_trees bits 0 n (somes ds0))) = mroot (ls ++ app).
Proof.
  intros L. rewrite (honest_fill bits L). destruct (fold_trail app ds0 (bits - length ds0)) as [k' E]. rewrite E.
  unfold Rhp.pa_root. rewrite root_trail. apply (repr_root H). apply acc_digits_repr. exact honest_repr.
Qed.
End Honest.

Lemma fold_ins0_one (x : hash) ds : fold_left ins0 [x] ds = insert_node H x 0 ds.
Proof. reflexivity. Qed.

(* the root BuildAppendProof returns beside the accumulator's digits is the plain root of old ++ appended *)
Theorem build_append_root (ls app : list hash) : snd (build_append_proof H ls app) = mroot (ls ++ app).
Proof. unfold build_append_proof. cbn [snd]. apply (repr_root H). apply acc_digits_repr. apply honest_repr. Qed.

(* both verifiers are this check, for a number of heights that holds the accumulator: rhp/v4 scans the bit length of the
   count, rhp/v2 all 64 heights and appends one root *)
Lemma append_complete bits (ls app : list hash) : (length (fold_left ins0 ls []) <= bits)%nat ->
  (let acc := fill_trees bits 0 (N.of_nat (length ls)) (somes (fold_left ins0 ls [])) in
   if negb (hash_eqb (pa_root acc) (mroot ls)) then false else hash_eqb (pa_root (fold_left ins0 app acc)) (mroot (ls ++ app))) = true.
Proof. intros L. cbv zeta. rewrite (honest_old ls bits L), hash_eqb_refl, (honest_new ls bits app L). apply hash_eqb_refl. Qed.
Theorem append_sectors_complete (ls app : list hash) :
  verify_append_sectors H (N.of_nat (length ls)) (fst (build_append_proof H ls app)) app (mroot ls) (snd (build_append_proof H ls app)) = true.
Proof. rewrite build_append_root. exact (append_complete _ ls app (honest_len_v4 ls)). Qed.
Theorem append_v2_complete (ls : list hash) (x : hash) : N.of_nat (length ls) < 2 ^ 64 ->
  verify_append H (N.of_nat (length ls)) (somes (fold_left ins0 ls [])) x (mroot ls) (mroot (ls ++ [x])) = true.
Proof.
  (* the single insertion is folded first: left to conversion, the comparison unfolds all 64 heights of fill_trees *)
  intros B. unfold verify_append. rewrite <- fold_ins0_one. exact (append_complete 64 ls [x] (honest_len_64 ls B)).
Qed.

(* how many hashes the filling consumes *)
Fixpoint need (bits : nat) (k n : N) : nat :=
  match bits with O => O | S b => (if N.testbit n k then 1 else 0) + need b (k + 1) n end.
Lemma need_somes (X : Type) (dflt : X) bits : forall k n ths, length (somes (pfill dflt bits k n ths)) = need bits k n.
Proof.
  induction bits as [|b IH]; intros k n ths; cbn [pfill need]; [reflexivity|].
  destruct (N.testbit n k); [|exact (IH (k + 1) n ths)].
  destruct ths as [|t rest]; exact (f_equal S (IH (k + 1) n _)).
Qed.
Lemma fill_pad (X : Type) (z : X) bits : forall k n c, pfill z bits k n (repeat z c) = pfill z bits k n [].
Proof.
  induction bits as [|b IH]; intros k n c; cbn [pfill]; [reflexivity|]. destruct (N.testbit n k); [|f_equal; apply IH].
  destruct c as [|c]; cbn [repeat]; [reflexivity|]. f_equal. apply IH.
Qed.
Lemma firstn_repeat (X : Type) (z : X) c : forall m, firstn c (repeat z m) = repeat z (Nat.min c m).
Proof. induction c as [|c IH]; intros [|m]; cbn [firstn repeat Nat.min]; [reflexivity..|]. f_equal. apply IH. Qed.
(* only the first [need] hashes matter, missing ones read as the default *)
Lemma fill_norm (X : Type) (z : X) bits : forall k n ths c m, (need bits k n <= c)%nat -> (c <= m)%nat ->
  pfill z bits k n (firstn c (ths ++ repeat z m)) = pfill z bits k n ths.
Proof.
  induction bits as [|b IH]; intros k n ths c m Hc Hm; cbn [pfill]; [reflexivity|]. cbn [need] in Hc.
  destruct (N.testbit n k).
  - destruct c as [|c]; [lia|]. destruct ths as [|t rest].
    + cbn [app]. destruct m as [|m]; [lia|]. cbn [repeat firstn]. f_equal.
      rewrite firstn_repeat. apply fill_pad.
    + cbn [app firstn]. f_equal. apply IH; lia.
  - f_equal. apply IH; lia.
Qed.

Lemma fill_pairs_eq (z : hash) bits : forall k n (a b : list hash), length a = length b ->
  allp (pfill (inj z z) bits k n (zipP a b)) -> pfill z bits k n a = pfill z bits k n b.
Proof.
  induction bits as [|bt IH]; intros k n a b L A; cbn [pfill] in *; [reflexivity|].
  destruct (N.testbit n k).
  - destruct a as [|x a]; destruct b as [|y b]; cbn [length] in L; try discriminate; cbn [zipP combine map allp] in A.
    + reflexivity.
    + destruct A as [E A]. cbn in E. rewrite E. f_equal. apply IH; [lia | exact A].
  - cbn [allp] in A. f_equal. apply IH; assumption.
Qed.
Lemma fill_gooda (z : hash) bits : forall k n (l : list (hash * hash)),
  gooda H (pfill (inj z z) bits k n (map (fun ab => inj (fst ab) (snd ab)) l)).
Proof.
  induction bits as [|bt IH]; intros k n l; cbn [pfill]; [apply Forall_nil|].
  destruct (N.testbit n k); [|apply Forall_cons; [exact I | apply IH]].
  destruct l as [|x l]; cbn [map]; (apply Forall_cons; [apply good_inj|]); [exact (IH (k + 1) n []) | apply IH].
Qed.

(* whatever digits reproduce the plain root of ls under the filling for n = |ls| are the accumulator's own digits: the
   submitted hashes, cut or padded to the number the filling reads, run through it paired with the honest ones *)
Theorem fill_sound (ls proof : list hash) bits : (length (fold_left ins0 ls []) <= bits)%nat ->
  pa_root (fill_trees bits 0 (N.of_nat (length ls)) proof) = mroot ls ->
  fill_trees bits 0 (N.of_nat (length ls)) proof = fill_trees bits 0 (N.of_nat (length ls)) (somes (fold_left ins0 ls [])) \/ NodeCollision H.
Proof.
  intros L R. set (n := N.of_nat (length ls)) in *. set (p0 := somes (fold_left ins0 ls [])) in *. set (c := length p0).
  assert (Nc : need bits 0 n = c).
  { rewrite <- (need_somes hash zero_hash bits 0 n p0), <- fill_p. unfold p0, n. rewrite (honest_fill ls bits L), somes_app, somes_nones, app_nil_r. reflexivity. }
  set (p1 := firstn c (proof ++ repeat zero_hash c)).
  assert (L1 : length p1 = length p0) by (unfold p1; rewrite firstn_length, app_length, repeat_length; fold c; lia).
  assert (F1 : fill_trees bits 0 n proof = fill_trees bits 0 n p1) by (rewrite !fill_p; symmetry; apply fill_norm; lia).
  rewrite F1 in *. rewrite !fill_p in *.
  set (D := pfill (inj zero_hash zero_hash) bits 0 n (zipP p1 p0)).
  assert (D1 : map (option_map f1) D = pfill zero_hash bits 0 n p1) by (unfold D; rewrite hom_fill, zip_f1 by exact L1; reflexivity).
  assert (D2 : map (option_map f2) D = pfill zero_hash bits 0 n p0) by (unfold D; rewrite hom_fill, zip_f2 by exact L1; reflexivity).
  destruct (root_pair H D (fill_gooda zero_hash bits 0 n _)) as [A|C]; [|left; apply fill_pairs_eq; assumption | right; exact C].
  rewrite D1, D2, R, <- fill_p. symmetry. exact (honest_old ls bits L).
Qed.

(* if the check accepts against the plain root of the existing roots (count held true), the new root it accepted is the
   plain root of existing ++ appended -- whatever subtree roots were supplied, too few or too many included -- or a node
   collision is exhibited *)
Lemma append_sound bits (ls app proof : list hash) (newRoot : hash) : (length (fold_left ins0 ls []) <= bits)%nat ->
  (let acc := fill_trees bits 0 (N.of_nat (length ls)) proof in
   if negb (hash_eqb (pa_root acc) (mroot ls)) then false else hash_eqb (pa_root (fold_left ins0 app acc)) newRoot) = true ->
  newRoot = mroot (ls ++ app) \/ NodeCollision H.
Proof.
  intros L V. apply guard_true in V. destruct V as [V1 V2]. apply hash_eqb_true in V1. apply hash_eqb_true in V2.
  destruct (fill_sound ls proof bits L V1) as [E|C]; [left | right; exact C].
  rewrite E, (honest_new ls bits app L) in V2. symmetry. exact V2.
Qed.
Theorem append_sectors_sound (ls app proof : list hash) (newRoot : hash) :
  verify_append_sectors H (N.of_nat (length ls)) proof app (mroot ls) newRoot = true ->
  newRoot = mroot (ls ++ app) \/ NodeCollision H.
Proof. exact (append_sound _ ls app proof newRoot (honest_len_v4 ls)). Qed.
Theorem append_v2_sound (ls proof : list hash) (x newRoot : hash) : N.of_nat (length ls) < 2 ^ 64 ->
  verify_append H (N.of_nat (length ls)) proof x (mroot ls) newRoot = true ->
  newRoot = mroot (ls ++ [x]) \/ NodeCollision H.
Proof. intros B. unfold verify_append. rewrite <- fold_ins0_one. exact (append_sound 64 ls [x] proof newRoot (honest_len_64 ls B)). Qed.
End Append.
