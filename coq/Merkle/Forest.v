(* The accumulator as a binary numeral of perfect trees; adding a leaf (blake2b Accumulator.AddLeaf, rhp/v2
   proofAccumulator.insertNode at height 0) is the increment. *)
From Coq Require Import List Arith Lia Bool.
Import ListNotations.
From Sia Require Import Merkle.Tree.

Section Forest.
Variable hash : Type.
Variable node : hash -> hash -> hash.
Notation ptree := (ptree hash).
Notation root := (root hash node).
Notation leaves := (leaves hash).
Notation perfect := (perfect hash).
Notation height := (height hash).

(* digits, least significant first: digit i is the root of a tree of height i, or absent *)
Definition digits := list (option hash).

Fixpoint inc (x : hash) (ds : digits) : digits :=
  match ds with
  | [] => [Some x]
  | None :: ds => Some x :: ds
  | Some r :: ds => None :: inc (node r x) ds
  end.

(* the abstract forest: same shape, but whole trees *)
Definition tdigits := list (option ptree).

Fixpoint tinc (x : ptree) (ts : tdigits) : tdigits :=
  match ts with
  | [] => [Some x]
  | None :: ts => Some x :: ts
  | Some t :: ts => None :: tinc (Node hash t x) ts
  end.

(* well-formed from height k: digit i holds a perfect tree of height k+i *)
Fixpoint wf_from (k : nat) (ts : tdigits) : Prop :=
  match ts with
  | [] => True
  | None :: ts => wf_from (S k) ts
  | Some t :: ts => perfect t /\ height t = k /\ wf_from (S k) ts
  end.

(* all leaves, oldest first: higher digits hold older leaves *)
Fixpoint all_leaves (ts : tdigits) : list hash :=
  match ts with
  | [] => []
  | None :: ts => all_leaves ts
  | Some t :: ts => all_leaves ts ++ leaves t
  end.

Definition roots_of (ts : tdigits) : digits := map (option_map root) ts.

Lemma tinc_wf k x ts : perfect x -> height x = k -> wf_from k ts -> wf_from k (tinc x ts).
Proof.
  revert k x. induction ts as [|[t|] ts IH]; intros k x Hx Hh Hw; simpl in *; auto.
  destruct Hw as (Ht & Hk & Hw). apply IH; simpl; auto. repeat split; auto; lia.
Qed.

Lemma tinc_leaves x ts : all_leaves (tinc x ts) = all_leaves ts ++ leaves x.
Proof.
  revert x. induction ts as [|[t|] ts IH]; intros x; simpl; auto.
  rewrite IH. simpl. now rewrite app_assoc.
Qed.

Lemma tinc_roots x ts : roots_of (tinc x ts) = inc (root x) (roots_of ts).
Proof.
  revert x. induction ts as [|[t|] ts IH]; intros x; simpl; auto.
  now rewrite IH.
Qed.

Definition Repr (L : list hash) (ds : digits) : Prop :=
  exists ts, wf_from 0 ts /\ all_leaves ts = L /\ roots_of ts = ds.

Notation grow xs ts := (fold_left (fun ts x => tinc (Leaf hash x) ts) xs ts).

Lemma grow_wf xs : forall ts, wf_from 0 ts -> wf_from 0 (grow xs ts).
Proof. induction xs as [|x xs IH]; intros ts Hw; [exact Hw|]. apply IH, tinc_wf; simpl; auto. Qed.

Lemma grow_leaves xs : forall ts, all_leaves (grow xs ts) = all_leaves ts ++ xs.
Proof.
  induction xs as [|x xs IH]; intros ts; simpl; [now rewrite app_nil_r|].
  rewrite IH, tinc_leaves. simpl. now rewrite <- app_assoc.
Qed.

Lemma grow_roots xs : forall ts, roots_of (grow xs ts) = fold_left (fun d x => inc x d) xs (roots_of ts).
Proof. induction xs as [|x xs IH]; intros ts; simpl; [reflexivity|]. now rewrite IH, tinc_roots. Qed.

Theorem add_leaves_repr L ds xs : Repr L ds -> Repr (L ++ xs) (fold_left (fun d x => inc x d) xs ds).
Proof.
  intros (ts & Hw & <- & <-). exists (grow xs ts).
  split; [apply grow_wf, Hw|]. split; [apply grow_leaves | apply grow_roots].
Qed.

Theorem add_leaf_repr L ds x : Repr L ds -> Repr (L ++ [x]) (inc x ds).
Proof. exact (add_leaves_repr L ds [x]). Qed.

Lemma repr_nil : Repr [] [].
Proof. exists []. simpl. auto. Qed.

(* number of leaves = value of the numeral *)
Fixpoint value (k : nat) (ds : digits) : nat :=
  match ds with [] => 0 | None :: ds => value (S k) ds | Some _ :: ds => 2 ^ k + value (S k) ds end.

Lemma leaves_length t : perfect t -> length (leaves t) = 2 ^ height t.
Proof.
  induction t as [x|l IHl r IHr]; simpl; intros H; auto.
  destruct H as (Hl & Hr & Hh). rewrite app_length, IHl, IHr, Hh by auto. lia.
Qed.

Lemma wf_value k ts : wf_from k ts -> length (all_leaves ts) = value k (roots_of ts).
Proof.
  revert k. induction ts as [|[t|] ts IH]; intros k H; simpl in *; auto.
  destruct H as (Ht & Hk & Hw). rewrite app_length, (IH (S k)) by auto. rewrite leaves_length, Hk by auto. lia.
Qed.

Theorem repr_count L ds : Repr L ds -> length L = value 0 ds.
Proof. intros (ts & Hw & <- & <-). now apply wf_value. Qed.
End Forest.
