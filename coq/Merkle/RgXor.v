(* bitlen (a xor b) is the least k with a / 2^k = b / 2^k; the verifier's mask formula as arithmetic *)
From Coq Require Import List NArith Arith Bool Lia.
From Sia Require Import Prim.Tok Merkle.Rhp.
From Sia Require Import Merkle.RgBits.
Import ListNotations.
Local Open Scope N_scope.

Lemma div_pow_mono a b d k : d <= k -> a / 2 ^ d = b / 2 ^ d -> a / 2 ^ k = b / 2 ^ k.
Proof.
  intros Hk E. rewrite <- (N.sub_add d k Hk), N.add_comm, N.pow_add_r, <- !N.div_div, E by (apply N.pow_nonzero; discriminate). reflexivity.
Qed.
Lemma div_interval a b q : b * q <= a < b * N.succ q -> a / b = q.
Proof.
  intros [L U]. assert (b <> 0) by (intros ->; apply (N.nlt_0_r _ U)).
  apply N.le_antisymm; [apply N.lt_succ_r, N.div_lt_upper_bound | apply N.div_le_lower_bound]; assumption.
Qed.
Lemma bitlen_xor_le a b k : bitlen (N.lxor a b) <= k <-> a / 2 ^ k = b / 2 ^ k.
Proof.
  rewrite bitlen_le, <- N.lxor_eq_0_iff, <- !N.shiftr_div_pow2, <- N.shiftr_lxor, N.shiftr_div_pow2.
  symmetry. apply N.div_small_iff, N.pow_nonzero. discriminate.
Qed.

Lemma bitlen_xor_char a b d : a / 2 ^ d = b / 2 ^ d -> (d = 0 \/ a / 2 ^ (d - 1) <> b / 2 ^ (d - 1)) -> bitlen (N.lxor a b) = d.
Proof.
  intros E NE. apply N.le_antisymm; [apply bitlen_xor_le, E|].
  destruct NE as [->|NE]; [apply N.le_0_l|]. apply N.le_ngt. intros L. apply NE, bitlen_xor_le. rewrite <- N.pred_sub. apply N.lt_le_pred, L.
Qed.

Lemma bitlen_xor_congr a a' m s : a / 2 ^ s = a' / 2 ^ s -> s < bitlen (N.lxor a m) -> bitlen (N.lxor a' m) = bitlen (N.lxor a m).
Proof.
  intros E L.
  assert (C : forall k, s <= k -> bitlen (N.lxor a m) <= k <-> bitlen (N.lxor a' m) <= k).
  { intros k Hk. rewrite !bitlen_xor_le, (div_pow_mono a a' s k Hk E). reflexivity. }
  apply N.le_antisymm; [apply C; [lia | apply N.le_refl]|].
  destruct (N.le_gt_cases s (bitlen (N.lxor a' m))) as [G|G]; [apply C; [exact G | apply N.le_refl]|].
  exfalso. apply (N.lt_irrefl s), (N.lt_le_trans _ _ _ L), C; [apply N.le_refl | lia].
Qed.

(* rangeProofSize's ^(end-1) & pathMask is the complement of the low d bits of e *)
Lemma mask_low k e d : d <= k -> N.land (N.ldiff (N.ones k) e) (N.ones d) = N.ones d - e mod 2 ^ d.
Proof.
  intros Hd. transitivity (N.ldiff (N.ones d) (N.land e (N.ones d))).
  - apply N.bits_inj. intros i. rewrite !N.ldiff_spec, !N.land_spec, N.ldiff_spec. destruct (N.lt_ge_cases i d).
    + rewrite !N.ones_spec_low by lia. destruct (N.testbit e i); reflexivity.
    + rewrite (N.ones_spec_high d) by lia. apply andb_false_r.
  - rewrite N.land_ones. symmetry. apply N.sub_nocarry_ldiff, ldiff_small, N.mod_lt, N.pow_nonzero. discriminate.
Qed.
Lemma mask_value e d : e < 2 ^ 64 -> d <= 64 ->
  N.land (N.ldiff (Rhp.W - 1) e) (2 ^ d - 1) = 2 ^ d - 1 - e mod 2 ^ d.
Proof. intros _ Hd. rewrite <- (N.pred_sub (2 ^ d)), <- N.ones_equiv. exact (mask_low 64 e d Hd). Qed.

Lemma div_pow2_split s A r : r < 2 ^ s -> (2 ^ s * A + r) / 2 ^ s = A.
Proof. intros Hr. rewrite N.mul_comm, N.div_add_l, N.div_small by (try apply N.pow_nonzero; easy). apply N.add_0_r. Qed.
Lemma mod_pow2_split s A r d : s <= d -> r < 2 ^ s -> (2 ^ s * A + r) mod 2 ^ d = 2 ^ s * (A mod 2 ^ (d - s)) + r.
Proof.
  intros Hs Hr. assert (Nz : forall k, 2 ^ k <> 0) by (intros k; apply N.pow_nonzero; discriminate).
  replace d with (s + (d - s)) at 1 by lia. rewrite N.pow_add_r, N.mod_mul_r, div_pow2_split by auto.
  rewrite (N.add_comm _ r), (N.mul_comm _ A), N.mod_add, N.mod_small by auto. apply N.add_comm.
Qed.
Lemma mask_split s A r d : s <= d -> r < 2 ^ s ->
  2 ^ d - 1 - (2 ^ s * A + r) mod 2 ^ d = 2 ^ s * (2 ^ (d - s) - 1 - A mod 2 ^ (d - s)) + (2 ^ s - 1 - r).
Proof.
  intros Hs Hr. rewrite mod_pow2_split by assumption. replace d with (s + (d - s)) at 1 by lia. rewrite N.pow_add_r.
  assert (Le : 2 ^ s * (A mod 2 ^ (d - s)) + 2 ^ s <= 2 ^ s * 2 ^ (d - s)).
  { rewrite <- N.mul_succ_r. apply N.mul_le_mono_l, N.le_succ_l, N.mod_lt, N.pow_nonzero. discriminate. }
  (* linear once the three products are variables; lia does not find this on the products themselves *)
  rewrite !N.mul_sub_distr_l, N.mul_1_r. revert Hr Le. generalize (2 ^ s) (2 ^ s * 2 ^ (d - s)) (2 ^ s * (A mod 2 ^ (d - s))). clear. lia.
Qed.
