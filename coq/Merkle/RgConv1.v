(* ConvertProofOrdering, part 1: the subtree lists of a single-leaf proof in a perfect tree, level by level. *)
From Coq Require Import List NArith Arith Bool Lia.
From Sia Require Import Prim.Tok Merkle.Tree Merkle.Forest Merkle.Rhp Merkle.RhpProofs Merkle.RhpRoot.
From Sia Require Import Merkle.RgBits Merkle.RgLoops Merkle.RgFinal Merkle.RgGap Merkle.RgMulti Merkle.RgDiff3 Merkle.RgRpv2.
Import ListNotations.
Local Open Scope N_scope.

Lemma top_bit a i : i < 2 ^ (a + 1) -> N.testbit i a = (2 ^ a <=? i).
Proof.
  intros B. rewrite N.testbit_eqb. rewrite N.pow_add_r, N.pow_1_r in B.
  pose proof (pow2_pos a) as P.
  destruct (N.leb_spec (2 ^ a) i) as [L|G].
  - assert (E : i / 2 ^ a = 1) by (symmetry; apply (N.div_unique i (2 ^ a) 1 (i - 2 ^ a)); lia). rewrite E. reflexivity.
  - rewrite N.div_small by lia. reflexivity.
Qed.
Lemma low_bits_sub a i b : 2 ^ a <= i -> i < 2 ^ (a + 1) -> b < a -> N.testbit (i - 2 ^ a) b = N.testbit i b.
Proof.
  intros L B Hb. rewrite N.pow_add_r, N.pow_1_r in B. rewrite <- (N.mod_pow2_bits_low i a b Hb).
  f_equal. apply (N.mod_unique i (2 ^ a) 1 (i - 2 ^ a)); lia.
Qed.

Section Conv1.
Variable H : bytes -> bytes.
Notation mroot := (Rhp.mroot H).
Notation range_subtrees := (Rhp.range_subtrees H).

Lemma nss_shift a x y : a < 63 -> x < y -> y <= 2 ^ a -> next_subtree_size (2 ^ a + x) (2 ^ a + y) = next_subtree_size x y.
Proof.
  intros Ha Hxy Hy. pose proof (pow2_pos a) as P.
  assert (B : 2 ^ a < 2 ^ 63) by (apply N.pow_lt_mono_r; lia). assert (B2 : (2:N) ^ 64 = 2 * 2 ^ 63) by reflexivity.
  destruct (nss_spec (2 ^ a + x) (2 ^ a + y) ltac:(clear - Hxy; lia) ltac:(clear - Hy B B2; lia)) as (h1 & E1 & _ & _ & _ & _ & M1).
  destruct (nss_spec x y Hxy ltac:(clear - Hy B B2; lia)) as (h2 & E2 & _ & _ & _ & _ & M2).
  rewrite E1, E2. f_equal. rewrite M1, M2. clear E1 E2 M1 M2. replace (2 ^ a + y - (2 ^ a + x)) with (y - x) by (clear; lia).
  destruct (N.eqb_spec (2 ^ a + x) 0) as [Z|_]; [clear - P Z; lia|]. destruct (N.eqb_spec x 0) as [->|NZ].
  - rewrite N.add_0_r, ctz_pow2, N.sub_0_r. assert (Ly : N.log2 y <= a) by (rewrite <- (N.log2_pow2 a) by apply N.le_0_l; apply N.log2_le_mono, Hy). clear - Ly Ha. lia.
  - f_equal. rewrite N.add_comm. apply ctz_add; [clear - NZ; lia|]. right. rewrite ctz_pow2. apply ctz_lt. clear - NZ Hxy Hy. lia.
Qed.

Lemma slice_right_half (L1 L2 : list hash) a x s : N.of_nat (length L1) = 2 ^ a -> slice (L1 ++ L2) (2 ^ a + x) s = slice L2 x s.
Proof. intros <-. apply slice_app_right. Qed.
Lemma skipn_add' {A} (l : list A) : forall a b, skipn (a + b) l = skipn b (skipn a l).
Proof. exact (skipn_add l). Qed.

Lemma subtrees_shift (L1 L2 : list hash) a : N.of_nat (length L1) = 2 ^ a -> a < 63 -> forall f x y, y <= 2 ^ a ->
  range_subtrees f (L1 ++ L2) (2 ^ a + x) (2 ^ a + y) = range_subtrees f L2 x y.
Proof.
  intros L Ha. induction f as [|f IH]; intros x y Hy; cbn [Rhp.range_subtrees]; [reflexivity|].
  destruct (N.ltb_spec (2 ^ a + x) (2 ^ a + y)); destruct (N.ltb_spec x y); try lia; [|reflexivity].
  cbv zeta. rewrite (nss_shift a x y Ha) by lia. rewrite (slice_right_half L1 L2 a x _ L). f_equal.
  rewrite <- N.add_assoc. apply IH. exact Hy.
Qed.
Lemma subtrees_low (L1 L2 : list hash) : forall f x y, y <= N.of_nat (length L1) -> y < 2 ^ 64 ->
  range_subtrees f (L1 ++ L2) x y = range_subtrees f L1 x y.
Proof.
  induction f as [|f IH]; intros x y Hy B; cbn [Rhp.range_subtrees]; [reflexivity|].
  destruct (N.ltb_spec x y) as [Lt|]; [|reflexivity]. cbv zeta. destruct (nss_spec x y Lt B) as (h & Es & _ & _ & Fit & _). rewrite Es.
  rewrite slice_app_left by lia. f_equal. apply IH; assumption.
Qed.

(* the right-hand part crossing the middle of a perfect tree: the subtrees up to the middle, then the whole right half *)
Lemma subtrees_cross (L1 L2 : list hash) a : N.of_nat (length L1) = 2 ^ a -> N.of_nat (length L2) = 2 ^ a -> a < 62 -> forall f x,
  0 < x -> x <= 2 ^ a -> (N.to_nat (phi x (2 ^ (a + 1))) <= f)%nat ->
  range_subtrees f (L1 ++ L2) x (2 ^ (a + 1)) = range_subtrees f L1 x (2 ^ a) ++ [mroot L2].
Proof.
  intros La Lb Ha. pose proof (pow2_pos a) as P.
  assert (E2 : 2 ^ (a + 1) = 2 * 2 ^ a) by (rewrite N.pow_add_r, N.pow_1_r; lia).
  assert (B : 2 ^ (a + 1) < 2 ^ 64) by (apply N.pow_lt_mono_r; lia).
  induction f as [|f IH]; intros x Hx Hxa En.
  - pose proof (phi_pos x (2 ^ (a + 1)) ltac:(clear - Hxa E2 P; lia) B) as Pp. clear - Pp En. lia.
  - assert (Lt : x < 2 ^ (a + 1)) by (clear - Hxa E2 P; lia). cbn [Rhp.range_subtrees]. rewrite (proj2 (N.ltb_lt _ _) Lt). cbv zeta.
    destruct (nss_pow2 (a + 1) x Hx Lt ltac:(clear - Ha; lia)) as [S1 F1]. rewrite S1.
    destruct (N.eq_dec x (2 ^ a)) as [->|Ne].
    + rewrite ctz_pow2, N.ltb_irrefl. cbn [app].
      rewrite <- (N.add_0_r (2 ^ a)) at 1. rewrite (slice_right_half L1 L2 a 0 _ La).
      unfold slice. cbn [N.to_nat skipn]. rewrite firstn_all2 by (clear - Lb; lia). f_equal.
      rewrite subtrees_nil by (clear - E2; lia). reflexivity.
    + assert (Lt2 : x < 2 ^ a) by (clear - Hxa Ne; lia). rewrite (proj2 (N.ltb_lt _ _) Lt2). destruct (nss_pow2 a x Hx Lt2 ltac:(clear - Ha; lia)) as [S2 F2]. rewrite S2.
      rewrite slice_app_left by (rewrite La; exact F2). rewrite <- app_comm_cons. apply f_equal. apply IH; [clear - Hx; lia | exact F2|].
      pose proof (phi_step x (2 ^ (a + 1)) Lt B ltac:(rewrite S1; clear - F2 E2 P; lia)) as Ps. rewrite S1 in Ps. clear - Ps En. lia.
Qed.

(* the left-hand part of an index in the right half: the whole left half, then the left-hand part inside the right half *)
Lemma subtrees_left_high (L1 L2 : list hash) a i : N.of_nat (length L1) = 2 ^ a -> a < 62 -> 2 ^ a <= i -> i < 2 ^ (a + 1) -> forall f,
  range_subtrees (S f) (L1 ++ L2) 0 i = mroot L1 :: range_subtrees f L2 0 (i - 2 ^ a).
Proof.
  intros La Ha Li Bi f. pose proof (pow2_pos a) as P.
  assert (E2 : 2 ^ (a + 1) = 2 * 2 ^ a) by (rewrite N.pow_add_r, N.pow_1_r; lia).
  assert (B : 2 ^ (a + 1) < 2 ^ 64) by (apply N.pow_lt_mono_r; lia).
  assert (I0 : 0 < i) by (clear - Li P; lia). cbn [Rhp.range_subtrees]. rewrite (proj2 (N.ltb_lt _ _) I0). cbv zeta.
  destruct (nss_spec 0 i I0 ltac:(clear - Bi B; lia)) as (h & Es & _ & _ & _ & _ & M). rewrite Es. cbn [N.eqb] in M. rewrite N.sub_0_r in M.
  assert (Lg : N.log2 i = a) by (apply (N.log2_unique' i a (i - 2 ^ a)); clear - Li Bi E2; lia). rewrite Lg in M. assert (h = a) by (clear - M Ha; lia). clear M. subst h.
  rewrite slice_app_left by (rewrite La; clear; lia). unfold slice at 1. cbn [N.to_nat skipn]. rewrite firstn_all2 by (clear - La; lia). f_equal.
  rewrite N.add_0_l. replace i with (2 ^ a + (i - 2 ^ a)) at 1 by (clear - Li; lia). rewrite <- (N.add_0_r (2 ^ a)) at 1.
  apply (subtrees_shift L1 L2 a La ltac:(clear - Ha; lia)). clear - Bi E2. lia.
Qed.
End Conv1.
