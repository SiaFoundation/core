(* The right-hand part of a built range proof, run through the verifier's last loop. *)
From Coq Require Import List NArith Arith Bool Lia.
From Sia Require Import Prim.Tok Merkle.Tree Merkle.Forest Merkle.Rhp Merkle.RhpProofs Merkle.RhpRoot.
From Sia Require Import Merkle.RgBits Merkle.RgLoops Merkle.RgRight.
Import ListNotations.
Local Open Scope N_scope.

Section RFinal.
Variable H : bytes -> bytes.
Notation node := (Rhp.node H).
Notation mroot := (Rhp.mroot H).
Notation build_range := (Rhp.build_range H).
Notation insert_range := (Rhp.insert_range H).
Notation insert_node := (Rhp.insert_node H).

(* the right part: aligned subtrees from i on, the last one clipped at the end of the list *)
Lemma right_sync (ls : list hash) : 0 < N.of_nat (length ls) <= 2 ^ 30 ->
  forall k i acc fb fv, (N.to_nat (N.of_nat (length ls) - i) <= k)%nat -> 0 < i -> i <= N.of_nat (length ls) ->
    Repr hash node (firstn (N.to_nat i) ls) acc ->
    (N.to_nat (N.of_nat (length ls) - i) <= fb)%nat -> (length (build_range fb ls (N.of_nat (length ls)) i (2 ^ 31 - 1)) < fv)%nat ->
    exists acc', insert_range fv acc (build_range fb ls (N.of_nat (length ls)) i (2 ^ 31 - 1)) i (Rhp.W - 1) = (acc', []) /\
                 pa_root H acc' = mroot ls.
Proof.
  intros Hn. set (n := N.of_nat (length ls)) in *. induction k as [|k IH]; intros i acc fb fv Hk Hi0 Hi R Hfb Hfv;
    (destruct (N.eq_dec i n) as [->|Ne];
      [exists acc; rewrite build_range_nil, insert_range_nil by lia; split; [reflexivity|]; rewrite (repr_root H _ _ R), firstn_all2 by lia; reflexivity|]); [lia|].
  assert (Lt : i < n) by (clear - Hi Ne; lia).
  destruct (nss_right i n Hi0 Lt (proj2 Hn)) as (Eb & Ev & C30 & (q & Dv) & Tz). pose proof (pow2_pos (ctz i)) as P.
  destruct fb as [|fb]; [clear - Hfb Lt; lia|]. cbn [Rhp.build_range] in *.
  rewrite (proj2 (N.ltb_lt i (2 ^ 31 - 1))), (proj2 (N.ltb_lt i n) Lt), Eb in * by (clear - Lt Hn; lia).
  cbn [andb] in *. cbv zeta in *. cbn [length] in Hfv. destruct fv as [|fv]; [clear - Hfv; lia|].
  cbn [Rhp.insert_range]. rewrite (proj2 (N.ltb_lt i (Rhp.W - 1))) by (clear - Lt Hn; unfold Rhp.W; lia). cbv zeta. rewrite Ev, Tz.
  destruct (N.ltb_spec n (i + 2 ^ ctz i)) as [Clip|Full].
  - (* the last, clipped subtree *)
    rewrite build_range_nil, insert_range_nil by (clear - Lt; lia). eexists. split; [reflexivity|].
    assert (LR : (0 < length (slice ls i (n - i)) <= 2 ^ N.to_nat (ctz i))%nat) by (rewrite slice_length, <- pow_nat by (clear - Lt; lia); clear - Lt Clip; lia).
    rewrite (insert_last H _ _ _ _ R (firstn_aligned ls i q (ctz i) Hi Dv) LR), firstn_slice, firstn_all2 by (clear - Lt; lia). reflexivity.
  - apply (IH (i + 2 ^ ctz i) _ fb fv); [clear - Hk P Lt; lia | clear - Hi0; lia | exact Full | exact (repr_block H ls i q (ctz i) acc R Dv Full) | clear - Hfb P Lt; lia | clear - Hfv; lia].
Qed.
End RFinal.
