(* ConvertProofOrdering, part 2: the left-to-right proof of one leaf of a perfect tree, reordered, is the bottom-up sibling
   list that the consensus storage-proof verifier expects. *)
From Coq Require Import List NArith ZArith Arith Bool Lia.
From Sia Require Import Prim.Tok Merkle.Tree Merkle.Forest Merkle.Rhp Merkle.RhpProofs Merkle.RhpRoot.
From Sia Require Import Merkle.RgBits Merkle.RgLoops Merkle.RgFinal Merkle.RgGap Merkle.RgMulti Merkle.RgDiff3 Merkle.RgRpv2 Merkle.StorageProof.
From Sia Require Import Merkle.RgRpv1 Merkle.RgConv1.
Import ListNotations.
Local Open Scope N_scope.

Lemma pow_N_nat a : N.of_nat (2 ^ a) = 2 ^ N.of_nat a.
Proof. rewrite Nat2N.inj_pow. reflexivity. Qed.

Section Conv2.
Variable H : bytes -> bytes.
Notation mroot := (Rhp.mroot H).
Notation range_subtrees := (Rhp.range_subtrees H).

(* the two halves of the proof, level by level from the top: at level a' the sibling is the other half *)
Fixpoint lefts (a : nat) (L : list hash) (i : N) : list hash :=
  match a with
  | O => []
  | S a' => let k := (2 ^ a')%nat in
            if N.testbit i (N.of_nat a') then mroot (firstn k L) :: lefts a' (skipn k L) i else lefts a' (firstn k L) i
  end.
Fixpoint rights (a : nat) (L : list hash) (i : N) : list hash :=
  match a with
  | O => []
  | S a' => let k := (2 ^ a')%nat in
            if N.testbit i (N.of_nat a') then rights a' (skipn k L) i else rights a' (firstn k L) i ++ [mroot (skipn k L)]
  end.
(* the consensus order: bottom-up *)
Fixpoint spb (a : nat) (L : list hash) (i : N) : list hash :=
  match a with
  | O => []
  | S a' => let k := (2 ^ a')%nat in
            if N.testbit i (N.of_nat a') then spb a' (skipn k L) i ++ [mroot (firstn k L)] else spb a' (firstn k L) i ++ [mroot (skipn k L)]
  end.

Lemma lefts_ext a : forall L i j, (forall b, b < N.of_nat a -> N.testbit i b = N.testbit j b) -> lefts a L i = lefts a L j.
Proof.
  induction a as [|a IH]; intros L i j E; cbn [lefts]; [reflexivity|]. rewrite (E (N.of_nat a)) by lia.
  destruct (N.testbit j (N.of_nat a)); [f_equal|]; apply IH; intros b Hb; apply E; lia.
Qed.
Lemma rights_ext a : forall L i j, (forall b, b < N.of_nat a -> N.testbit i b = N.testbit j b) -> rights a L i = rights a L j.
Proof.
  induction a as [|a IH]; intros L i j E; cbn [rights]; [reflexivity|]. rewrite (E (N.of_nat a)) by lia.
  destruct (N.testbit j (N.of_nat a)); [|f_equal]; apply IH; intros b Hb; apply E; lia.
Qed.
Lemma spb_ext a : forall L i j, (forall b, b < N.of_nat a -> N.testbit i b = N.testbit j b) -> spb a L i = spb a L j.
Proof.
  induction a as [|a IH]; intros L i j E; cbn [spb]; [reflexivity|]. rewrite (E (N.of_nat a)) by lia.
  destruct (N.testbit j (N.of_nat a)); f_equal; apply IH; intros b Hb; apply E; lia.
Qed.

(* the builder's two loops produce these lists; the left part of an index below 2^a has at most a subtrees, so fuel a is enough *)
Lemma left_lefts : forall a (L : list hash), length L = (2 ^ a)%nat -> (a <= 30)%nat -> forall i f, i < 2 ^ N.of_nat a -> (a <= f)%nat ->
  range_subtrees f L 0 i = lefts a L i.
Proof.
  apply (pow2_list_ind (fun a L => (a <= 30)%nat -> forall i f, i < 2 ^ N.of_nat a -> (a <= f)%nat -> range_subtrees f L 0 i = lefts a L i)).
  - intros x _ i f Hi _. apply subtrees_nil. cbn in Hi. lia.
  - intros a L1 L2 M1 M2 IH1 IH2 Ha i f Hi Hf. rewrite Nat2N.inj_succ, <- N.add_1_r in Hi.
    assert (N1 : N.of_nat (length L1) = 2 ^ N.of_nat a) by (rewrite M1; apply pow_N_nat).
    assert (B : 2 ^ N.of_nat a < 2 ^ 64) by (apply N.pow_lt_mono_r; clear - Ha; lia).
    cbn [lefts]. rewrite (firstn_left L1 L2 _ M1), (skipn_left L1 L2 _ M1), (top_bit _ i Hi).
    destruct (N.leb_spec (2 ^ N.of_nat a) i) as [Hi2|Lo].
    + destruct f as [|f]; [clear - Hf; lia|]. rewrite (subtrees_left_high H L1 L2 (N.of_nat a) i N1 ltac:(clear - Ha; lia) Hi2 Hi f). f_equal.
      rewrite (lefts_ext a L2 i (i - 2 ^ N.of_nat a)) by (intros b Hb; symmetry; apply low_bits_sub; assumption).
      apply IH2; [clear - Ha; lia | rewrite N.pow_add_r, N.pow_1_r in Hi; clear - Hi Hi2; lia | clear - Hf; lia].
    + rewrite (subtrees_low H L1 L2 f 0 i) by (rewrite ?N1; clear - Lo B; lia). apply IH1; [clear - Ha; lia | exact Lo | clear - Hf; lia].
Qed.
Lemma left_is_lefts a : forall (L : list hash) i f, (a <= 30)%nat -> length L = (2 ^ a)%nat -> i < 2 ^ N.of_nat a -> (128 <= f)%nat ->
  range_subtrees f L 0 i = lefts a L i.
Proof. intros L i f Ha Ll Hi Hf. apply left_lefts; [exact Ll | exact Ha | exact Hi | lia]. Qed.
Lemma right_is_rights a : forall (L : list hash) i f, (a <= 30)%nat -> length L = (2 ^ a)%nat -> i < 2 ^ N.of_nat a -> (128 <= f)%nat ->
  range_subtrees f L (i + 1) (2 ^ N.of_nat a) = rights a L i.
Proof.
  intros L i f Ha Ll Hi Hf. revert Ha i Hi. revert a L Ll.
  apply (pow2_list_ind (fun a L => (a <= 30)%nat -> forall i, i < 2 ^ N.of_nat a -> range_subtrees f L (i + 1) (2 ^ N.of_nat a) = rights a L i)).
  - intros x _ i Hi. apply subtrees_nil. cbn in *. lia.
  - intros a L1 L2 M1 M2 IH1 IH2 Ha i Hi. rewrite Nat2N.inj_succ, <- N.add_1_r in Hi |- *.
    assert (N1 : N.of_nat (length L1) = 2 ^ N.of_nat a) by (rewrite M1; apply pow_N_nat).
    assert (N2 : N.of_nat (length L2) = 2 ^ N.of_nat a) by (rewrite M2; apply pow_N_nat).
    pose proof (pow2_pos (N.of_nat a)) as P.
    assert (E2 : 2 ^ (N.of_nat a + 1) = 2 ^ N.of_nat a + 2 ^ N.of_nat a) by (rewrite N.pow_add_r, N.pow_1_r; clear; lia).
    assert (B64 : 2 ^ (N.of_nat a + 1) < 2 ^ 64) by (apply N.pow_lt_mono_r; clear - Ha; lia). assert (A62 : N.of_nat a < 62) by (clear - Ha; lia).
    cbn [rights]. rewrite (firstn_left L1 L2 _ M1), (skipn_left L1 L2 _ M1), (top_bit _ i Hi).
    destruct (N.leb_spec (2 ^ N.of_nat a) i) as [Hi2|Lo].
    + rewrite (rights_ext a L2 i (i - 2 ^ N.of_nat a)) by (intros b Hb; symmetry; apply low_bits_sub; assumption).
      rewrite E2. replace (i + 1) with (2 ^ N.of_nat a + (i - 2 ^ N.of_nat a + 1)) by (clear - Hi2; lia).
      rewrite (subtrees_shift H L1 L2 (N.of_nat a) N1 ltac:(clear - A62; lia) f) by apply N.le_refl. apply IH2; [clear - Ha; lia | clear - Hi Hi2 E2; lia].
    + rewrite (subtrees_cross H L1 L2 (N.of_nat a) N1 N2 A62 f (i + 1)) by (try (clear - Lo; lia); pose proof (phi_bound (i + 1) (2 ^ (N.of_nat a + 1)) B64) as Pb; clear - Pb Hf; lia).
      f_equal. apply IH1; [clear - Ha; lia | exact Lo].
Qed.

Fixpoint cnt (j : N) (b : N) (k : nat) : nat := match k with O => O | S k' => ((if N.testbit j b then 1 else 0) + cnt j (b + 1) k')%nat end.
Lemma cnt_le j k : forall b, (cnt j b k <= k)%nat.
Proof. induction k as [|k IH]; intros b; cbn [cnt]; [lia|]. specialize (IH (b + 1)). destruct (N.testbit j b); lia. Qed.
Lemma cnt_snoc j k : forall b, cnt j b (S k) = (cnt j b k + (if N.testbit j (b + N.of_nat k) then 1 else 0))%nat.
Proof.
  induction k as [|k IH]; intros b; [cbn [cnt]; rewrite N.add_0_r; lia|].
  change (cnt j b (S (S k))) with ((if N.testbit j b then 1 else 0) + cnt j (b + 1) (S k))%nat. rewrite IH. cbn [cnt].
  replace (b + 1 + N.of_nat k) with (b + N.of_nat (S k)) by lia. lia.
Qed.
Lemma cnt_ext j i k : forall b, (forall c, b <= c -> c < b + N.of_nat k -> N.testbit j c = N.testbit i c) -> cnt j b k = cnt i b k.
Proof. induction k as [|k IH]; intros b E; cbn [cnt]; [reflexivity|]. rewrite (E b) by lia. rewrite (IH (b + 1)) by (intros c C1 C2; apply E; lia). reflexivity. Qed.
Lemma lefts_length a : forall L i, length (lefts a L i) = cnt i 0 a.
Proof.
  induction a as [|a IH]; intros L i; [reflexivity|]. rewrite cnt_snoc. cbn [lefts]. rewrite N.add_0_l.
  destruct (N.testbit i (N.of_nat a)); cbn [length]; rewrite IH; lia.
Qed.
Lemma rights_length a : forall L i, length (rights a L i) = (a - cnt i 0 a)%nat.
Proof.
  induction a as [|a IH]; intros L i; [reflexivity|]. rewrite cnt_snoc. cbn [rights]. rewrite N.add_0_l. pose proof (cnt_le i a 0).
  destruct (N.testbit i (N.of_nat a)); [rewrite IH; lia | rewrite app_length, IH; cbn [length]; lia].
Qed.

(* the sibling of the top level comes out last, whichever side it stands on: a left sibling is the first of the lefts, a
   right sibling the last of the rights *)
Lemma conv_last j T k : forall f b X Y, (S k <= f)%nat -> length X = cnt j b k -> length Y = (k - cnt j b k)%nat ->
  convert_order f b j (if N.testbit j (b + N.of_nat k) then T :: X else X) (if N.testbit j (b + N.of_nat k) then Y else Y ++ [T]) (S k) =
  convert_order f b j X Y k ++ [T].
Proof.
  induction k as [|k IH]; intros f b X Y Hf LX LY; (destruct f as [|f]; [lia|]); cbn [cnt] in LX, LY.
  - destruct X; [|discriminate]. destruct Y; [|discriminate]. rewrite N.add_0_r. cbn [convert_order].
    destruct (N.testbit j b); cbn [app rev]; destruct f; reflexivity.
  - pose proof (cnt_le j k (b + 1)) as CL. replace (b + N.of_nat (S k)) with (b + 1 + N.of_nat k) by lia.
    specialize (IH f (b + 1)). set (top := N.testbit j (b + 1 + N.of_nat k)) in *.
    cbn [convert_order]. replace (S (S k) - 1)%nat with (S k) by lia. replace (S k - 1)%nat with k by lia. destruct (N.testbit j b).
    + destruct (@exists_last _ X ltac:(destruct X; [cbn [length] in LX; lia | discriminate])) as (X' & x & ->). rewrite app_length in LX. cbn [length] in LX.
      replace (if top then T :: X' ++ [x] else X' ++ [x]) with ((if top then T :: X' else X') ++ [x]) by (destruct top; reflexivity).
      rewrite !rev_app_distr. cbn [rev app]. rewrite !rev_involutive, IH by lia. reflexivity.
    + destruct Y as [|y Y']; [cbn [length] in LY; lia|]. cbn [length] in LY.
      replace (if top then y :: Y' else (y :: Y') ++ [T]) with (y :: (if top then Y' else Y' ++ [T])) by (destruct top; reflexivity).
      rewrite IH by lia. reflexivity.
Qed.
Lemma conv_right j R k : forall f b X Y, (S k <= f)%nat -> length X = cnt j b k -> length Y = (k - cnt j b k)%nat -> N.testbit j (b + N.of_nat k) = false ->
  convert_order f b j X (Y ++ [R]) (S k) = convert_order f b j X Y k ++ [R].
Proof using H. intros f b X Y Hf LX LY Tb. pose proof (conv_last j R k f b X Y Hf LX LY) as E. rewrite Tb in E. exact E. Qed.
Lemma conv_left j M k : forall f b X Y, (S k <= f)%nat -> length X = cnt j b k -> length Y = (k - cnt j b k)%nat -> N.testbit j (b + N.of_nat k) = true ->
  convert_order f b j (M :: X) Y (S k) = convert_order f b j X Y k ++ [M].
Proof using H. intros f b X Y Hf LX LY Tb. pose proof (conv_last j M k f b X Y Hf LX LY) as E. rewrite Tb in E. exact E. Qed.
Lemma conv_is_spb a : forall L i j f, (forall b, b < N.of_nat a -> N.testbit j b = N.testbit i b) -> (a <= f)%nat ->
  convert_order f 0 j (lefts a L i) (rights a L i) a = spb a L i.
Proof.
  induction a as [|a IH]; intros L i j f E Hf.
  - cbn [lefts rights spb]. destruct f; reflexivity.
  - assert (E' : forall b, b < N.of_nat a -> N.testbit j b = N.testbit i b) by (intros b Hb; apply E; lia).
    assert (Cj : cnt j 0 a = cnt i 0 a) by (apply cnt_ext; intros c _ Hc; apply E'; lia).
    cbn [lefts rights spb]. destruct (N.testbit i (N.of_nat a)) eqn:Ti.
    + rewrite conv_left; [rewrite IH by (try exact E'; lia); reflexivity | lia | rewrite lefts_length; lia | rewrite rights_length; lia | rewrite N.add_0_l, E by lia; exact Ti].
    + rewrite conv_right; [rewrite IH by (try exact E'; lia); reflexivity | lia | rewrite lefts_length; lia | rewrite rights_length; lia | rewrite N.add_0_l, E by lia; exact Ti].
Qed.

(* sp_prove (the plain recursive sibling list of the consensus side) on a perfect list, by the bits of the index *)
Lemma sp_prove_halves a (L1 L2 : list hash) f i : length L1 = (2 ^ a)%nat -> length L2 = (2 ^ a)%nat ->
  sp_prove H (S f) (L1 ++ L2) i = if (i <? 2 ^ a)%nat then sp_prove H f L1 i ++ [mroot L2] else sp_prove H f L2 (i - 2 ^ a) ++ [mroot L1].
Proof.
  intros M1 M2. pose proof (pow2_pos_nat a) as P. assert (Ln : length (L1 ++ L2) = (2 ^ a + 2 ^ a)%nat) by (rewrite app_length, M1, M2; reflexivity).
  unfold hash in *. rewrite sp_prove_step by lia. destruct (split_point_spec (length (L1 ++ L2)) ltac:(lia)) as (b & E & Lo & Hi). rewrite E. cbv zeta. rewrite Nat.pow_succ_r' in Hi.
  assert (b = a) by (apply (pow2_sandwich b a (length (L1 ++ L2))); rewrite ?Nat.pow_succ_r'; lia). subst b.
  rewrite (firstn_left L1 L2 _ M1), (skipn_left L1 L2 _ M1). reflexivity.
Qed.
Lemma sp_prove_spb a : forall (L : list hash) i fuel, length L = (2 ^ a)%nat -> (length L <= fuel)%nat -> i < 2 ^ N.of_nat a ->
  sp_prove H fuel L (N.to_nat i) = spb a L i.
Proof.
  intros L i fuel Ll. revert i fuel. revert a L Ll.
  apply (pow2_list_ind (fun a L => forall i fuel, (length L <= fuel)%nat -> i < 2 ^ N.of_nat a -> sp_prove H fuel L (N.to_nat i) = spb a L i)).
  - intros x i fuel _ _. destruct fuel; reflexivity.
  - intros a L1 L2 M1 M2 IH1 IH2 i fuel Hf Hi. rewrite Nat2N.inj_succ, <- N.add_1_r in Hi. rewrite app_length, M1, M2 in Hf.
    pose proof (pow2_pos_nat a) as P. pose proof (pow_N_nat a) as PN. destruct fuel as [|f]; [lia|].
    rewrite (sp_prove_halves a L1 L2 f _ M1 M2). cbn [spb]. rewrite (firstn_left L1 L2 _ M1), (skipn_left L1 L2 _ M1), (top_bit _ i Hi).
    destruct (N.leb_spec (2 ^ N.of_nat a) i) as [Hi2|Lo].
    + destruct (Nat.ltb_spec (N.to_nat i) (2 ^ a)) as [C|_]; [lia|]. f_equal.
      replace (N.to_nat i - 2 ^ a)%nat with (N.to_nat (i - 2 ^ N.of_nat a)) by lia.
      rewrite IH2 by (rewrite ?M2; try lia; rewrite N.pow_add_r, N.pow_1_r in Hi; lia). apply spb_ext. intros b Hb. apply low_bits_sub; assumption.
    + destruct (Nat.ltb_spec (N.to_nat i) (2 ^ a)) as [_|C]; [|lia]. f_equal. apply IH1; [rewrite M1; lia | exact Lo].
Qed.

Theorem convert_is_storage_proof (a : nat) (L : list hash) i : (1 <= a <= 30)%nat -> length L = (2 ^ a)%nat -> i < 2 ^ N.of_nat a ->
  convert_proof_ordering (build_range_proof H L i (i + 1)) i = sp_prove H (length L) L (N.to_nat i).
Proof.
  intros Ha Ll Hi. assert (Ln : N.of_nat (length L) = 2 ^ N.of_nat a) by (rewrite Ll; apply pow_N_nat).
  pose proof (pow2_pos (N.of_nat a)) as P.
  assert (B30 : 2 ^ N.of_nat a <= 2 ^ 30) by (apply N.pow_le_mono_r; lia).
  assert (A30 : (a <= 30)%nat) by apply Ha. assert (F : (128 <= FUEL)%nat) by (unfold FUEL; clear; lia).
  pose proof (left_is_lefts a L i FUEL A30 Ll Hi F) as EL. pose proof (right_is_rights a L i FUEL A30 Ll Hi F) as ER.
  assert (Lc : length (lefts a L i) = N.to_nat (popcount i)).
  { rewrite <- EL. pose proof (gaps_length H L FUEL 0 i) as G. rewrite (cnt_left H (2 ^ N.of_nat a) i (N.lt_le_incl _ _ Hi) ltac:(clear - B30; lia)) in G. clear - G. lia. }
  unfold build_range_proof. rewrite (proj2 (N.eqb_neq _ 0)) by (rewrite Ln; clear - P; lia).
  rewrite <- (subtrees_build H L i) by (rewrite ?Ln; clear - Hi B30; lia). rewrite Ln.
  rewrite (build_right_pow2 H (N.of_nat a) L ltac:(clear - Ha; lia) FUEL (i + 1) ltac:(clear; lia) ltac:(clear - Hi; lia)), EL, ER.
  unfold convert_proof_ordering. rewrite (firstn_left _ _ _ Lc), (skipn_left _ _ _ Lc), app_length, lefts_length, rights_length.
  pose proof (cnt_le i a 0) as CL. replace (cnt i 0 a + (a - cnt i 0 a))%nat with a by (clear - CL; lia).
  rewrite (conv_is_spb a L i i 200%nat (fun b _ => eq_refl)) by (clear - Ha; lia).
  symmetry. apply sp_prove_spb; [exact Ll | apply Nat.le_refl | exact Hi].
Qed.
End Conv2.

(* hence the consensus verifier accepts the reordered RHP leaf proof against the plain root *)
Theorem converted_proof_accepted (H : bytes -> bytes) (a : nat) (L : list hash) i filesize d : (1 <= a <= 30)%nat -> length L = (2 ^ a)%nat -> i < 2 ^ N.of_nat a ->
  (0 < filesize < 2 ^ 64)%Z -> Z.of_nat (length L) = sp_num_leaves filesize ->
  Validate.sp_root_v2 H (nth (N.to_nat i) L d) (Z.of_nat (N.to_nat i)) filesize (convert_proof_ordering (build_range_proof H L i (i + 1)) i) = Rhp.mroot H L.
Proof.
  intros Ha Ll Hi Hf Hn. rewrite (convert_is_storage_proof H a L i Ha Ll Hi).
  apply (storage_proof_v2_complete H L filesize (N.to_nat i) d Hf Hn).
  (* StorageProof states its theorems over [bytes]: the goal's [length L] is at that type, Ll's at [hash] *)
  change (N.to_nat i < @length hash L)%nat. rewrite Ll. pose proof (pow_N_nat a). lia.
Qed.
