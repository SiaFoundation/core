(* The accumulator against the true forest over all leaves ever added (Acc.forest_of): addLeaves computes its roots, and a
   proof verifies against them exactly if it is the path of the leaf at that index in the forest (C04, C05). *)
From Coq Require Import List NArith ZArith Arith Bool Lia.
From Sia Require Import Prim.Tok Merkle.Pow2 Merkle.Tree Merkle.Forest Merkle.Acc.
Import ListNotations.

Section AccProofs.
Variable H : bytes -> bytes.
Notation node := (node H).
Notation roots := (roots H).
Notation ptree := (ptree hash).
Notation root := (root hash node).
Notation sibs := (sibs hash node).
Notation perfect := (perfect hash).
Notation height := (height hash).
Notation leaves := (leaves hash).
Notation get := (get hash).
Notation all_leaves := (all_leaves hash).
Notation wf_from := (wf_from hash).
Notation tinc := (tinc hash).
Notation roots_of := (roots_of hash node).

Notation size ts := (N.of_nat (length (all_leaves ts))).

Lemma forest_wf L : wf_from 0 (forest_of L).
Proof. apply grow_wf. exact I. Qed.
Lemma forest_leaves L : all_leaves (forest_of L) = L.
Proof. apply (grow_leaves hash L []). Qed.

(* addLeaves' carry chain computes the roots of the true forest *)
Theorem add_roots L xs : add_leaves H (roots L) xs = roots (L ++ xs).
Proof. unfold add_leaves, roots, Acc.forest_of. rewrite fold_left_app. symmetry. apply grow_roots. Qed.

Theorem roots_count L : N.of_nat (length L) = num_leaves (roots L).
Proof. unfold num_leaves. rewrite <- (forest_leaves L) at 1. f_equal. apply wf_value, forest_wf. Qed.

Local Open Scope N_scope.
Lemma leaves_len t : perfect t -> N.of_nat (length (leaves t)) = 2 ^ N.of_nat (height t).
Proof. intros Hp. rewrite (leaves_length hash t Hp). apply Nat2N.inj_pow. Qed.

Lemma path_left h q : q < 2 ^ N.of_nat h -> path (S h) q = false :: path h q.
Proof. intros Hq. cbn [path]. destruct (N.leb_spec (2 ^ N.of_nat h) q); [lia | reflexivity]. Qed.
Lemma path_right h q : path (S h) (2 ^ N.of_nat h + q) = true :: path h q.
Proof. cbn [path]. destruct (N.leb_spec (2 ^ N.of_nat h) (2 ^ N.of_nat h + q)); [|lia]. f_equal. f_equal. lia. Qed.

Lemma path_length h r : length (path h r) = h.
Proof. revert r; induction h; intros; simpl; auto. Qed.

Lemma get_path t r : perfect t -> r < 2 ^ N.of_nat (height t) ->
  get t (path (height t) r) = nth_error (leaves t) (N.to_nat r).
Proof using.
  clear H. (* the statement does not mention H; with H in the context, lia puts it into the proof term *)
  revert r. induction t as [x|l IHl rt IHr]; intros r Hp Hr.
  - simpl in *. assert (r = 0) as -> by lia. reflexivity.
  - destruct Hp as (Hl & Hrr & Hh). cbn [height leaves] in *. rewrite N_pow2_S in Hr.
    pose proof (leaves_len l Hl) as Ll.
    destruct (N.lt_ge_cases r (2 ^ N.of_nat (height l))) as [Hlt|Hge].
    + rewrite path_left by exact Hlt. cbn [Tree.get]. rewrite IHl by auto. rewrite nth_error_app1 by lia. reflexivity.
    + cbn [path]. destruct (N.leb_spec (2 ^ N.of_nat (height l)) r); [|lia]. cbn [Tree.get]. rewrite Hh at 1. rewrite IHr by (rewrite <- ?Hh; auto; lia).
      rewrite nth_error_app2 by lia. f_equal. lia.
Qed.

Lemma lsb_bits_S idx h : lsb_bits idx (S h) = lsb_bits idx h ++ [N.testbit idx (N.of_nat h)].
Proof. unfold lsb_bits. rewrite seq_S, map_app. reflexivity. Qed.

Lemma lsb_bits_path h idx : lsb_bits idx h = rev (path h (idx mod 2 ^ N.of_nat h)).
Proof.
  induction h as [|h IH]; [reflexivity|].
  pose proof (N_pow2_nz h) as HP. pose proof (N.mod_lt idx _ HP) as Hm.
  rewrite lsb_bits_S, IH, N_pow2_S, N.mul_comm, N.mod_mul_r, <- N.testbit_spec' by lia.
  destruct (N.testbit idx (N.of_nat h)); cbn [N.b2n].
  - rewrite N.mul_1_r, N.add_comm, path_right. reflexivity.
  - rewrite N.mul_0_r, N.add_0_r, path_left by exact Hm. reflexivity.
Qed.

(* [locate ts k = Some (t, r)]: leaf k of the forest is leaf r of the tree t of some digit *)
Lemma locate_above t0 ts k : k < size ts -> locate (Some t0 :: ts) k = locate ts k.
Proof. intros Hk. cbn [locate]. destruct (N.ltb_spec k (size ts)); [reflexivity | lia]. Qed.

Lemma locate_here t0 ts r : r < N.of_nat (length (leaves t0)) -> locate (Some t0 :: ts) (size ts + r) = Some (t0, r).
Proof.
  intros Hr. cbn [locate]. destruct (N.ltb_spec (size ts + r) (size ts)); [lia|].
  replace (size ts + r - size ts) with r by lia. destruct (N.ltb_spec r (N.of_nat (length (leaves t0)))); [reflexivity | lia].
Qed.

Lemma locate_inv t0 ts k t r : locate (Some t0 :: ts) k = Some (t, r) ->
  (k < size ts /\ locate ts k = Some (t, r)) \/ (t = t0 /\ k = size ts + r /\ r < N.of_nat (length (leaves t0))).
Proof.
  cbn [locate]. destruct (N.ltb_spec k (size ts)); [left; auto|].
  destruct (N.ltb_spec (k - size ts) (N.of_nat (length (leaves t0)))); [|discriminate].
  intros [= <- <-]. right. repeat split; lia.
Qed.

Lemma locate_lt ts : forall k t r, locate ts k = Some (t, r) -> k < size ts.
Proof.
  induction ts as [|[t0|] ts IH]; intros k t r L; [discriminate| |exact (IH _ _ _ L)].
  cbn [Forest.all_leaves]. rewrite app_length, Nat2N.inj_add. destruct (locate_inv _ _ _ _ _ L) as [[Hk _]|(_ & -> & Hr)]; lia.
Qed.

Lemma locate_some ts j : j < size ts -> exists t r, locate ts j = Some (t, r).
Proof.
  induction ts as [|[t0|] ts IH]; cbn [Forest.all_leaves]; intros Hj; [cbn in Hj; lia | | exact (IH Hj)].
  destruct (N.lt_ge_cases j (size ts)) as [Hlt|Hge].
  - rewrite locate_above by exact Hlt. exact (IH Hlt).
  - rewrite app_length, Nat2N.inj_add in Hj. replace j with (size ts + (j - size ts)) by lia. rewrite locate_here by lia. eauto.
Qed.

Lemma wf_nth k ts : forall i t, wf_from k ts -> nth_error ts i = Some (Some t) -> perfect t /\ height t = (k + i)%nat.
Proof.
  revert k. induction ts as [|d ts IH]; intros k [|i] t Hw Hn; cbn in Hn; try discriminate.
  - inversion Hn; subst d. destruct Hw as (A & B & _). split; [exact A | lia].
  - assert (Hw' : wf_from (S k) ts) by (destruct d; apply Hw). destruct (IH (S k) i t Hw' Hn). split; [assumption | lia].
Qed.

Lemma locate_digit ts : forall k t r, locate ts k = Some (t, r) ->
  exists i, nth_error ts i = Some (Some t) /\ r < N.of_nat (length (leaves t)).
Proof.
  induction ts as [|[t0|] ts IH]; intros k t r L; [discriminate| |].
  - destruct (locate_inv _ _ _ _ _ L) as [[_ L']|(-> & _ & Hr)]; [|exists 0%nat; auto].
    destruct (IH _ _ _ L') as (i & A & B). exists (S i). auto.
  - destruct (IH _ _ _ L) as (i & A & B). exists (S i). auto.
Qed.

Lemma locate_at ts : forall i t r, nth_error ts i = Some (Some t) -> r < N.of_nat (length (leaves t)) ->
  exists k, locate ts k = Some (t, r).
Proof.
  induction ts as [|d ts IH]; intros [|i] t r Hn Hr; cbn in Hn; try discriminate.
  - inversion Hn; subst d. exists (size ts + r). apply locate_here. exact Hr.
  - destruct (IH i t r Hn Hr) as [k L]. exists k. destruct d; [rewrite locate_above by exact (locate_lt _ _ _ _ L)|]; exact L.
Qed.

Lemma locate_nth ts : forall k t r, locate ts k = Some (t, r) ->
  nth_error (all_leaves ts) (N.to_nat k) = nth_error (leaves t) (N.to_nat r).
Proof.
  induction ts as [|[t0|] ts IH]; intros k t r L; [discriminate| |exact (IH _ _ _ L)]. cbn [Forest.all_leaves].
  destruct (locate_inv _ _ _ _ _ L) as [[Hk L']|(-> & -> & Hr)].
  - rewrite nth_error_app1 by lia. exact (IH _ _ _ L').
  - rewrite nth_error_app2 by lia. f_equal. lia.
Qed.

(* digits that start at height k hold a multiple of 2^k leaves; hence (locate_mod) the index of a leaf within its tree is
   the low bits of its index in the forest *)
Lemma wf_leaves_div k ts : wf_from k ts -> exists q, size ts = q * 2 ^ N.of_nat k.
Proof.
  revert k. induction ts as [|[t|] ts IH]; intros k Hw; simpl in *.
  - exists 0. lia.
  - destruct Hw as (Hp & Hk & Hw). destruct (IH (S k) Hw) as [q Hq].
    rewrite app_length, Nat2N.inj_add, Hq, (leaves_len t Hp), Hk, N_pow2_S. exists (2 * q + 1). lia.
  - destruct (IH (S k) Hw) as [q Hq]. rewrite Hq, N_pow2_S. exists (2 * q). lia.
Qed.

Lemma locate_mod k0 ts : forall k t r, wf_from k0 ts -> locate ts k = Some (t, r) -> k mod 2 ^ N.of_nat (height t) = r.
Proof.
  revert k0. induction ts as [|[t0|] ts IH]; intros k0 k t r Hw L; [discriminate| |exact (IH (S k0) _ _ _ Hw L)].
  destruct Hw as (Hp & Hk & Hw). destruct (locate_inv _ _ _ _ _ L) as [[_ L']|(-> & -> & Hr)]; [exact (IH (S k0) _ _ _ Hw L')|].
  destruct (wf_leaves_div _ ts Hw) as [q Hq]. rewrite (leaves_len t0 Hp) in Hr.
  rewrite Hq, Hk, N_pow2_S, N.add_comm, N.mul_assoc, N.mod_add by apply N_pow2_nz. apply N.mod_small. rewrite <- Hk. exact Hr.
Qed.
Local Close Scope N_scope.

Definition verifies (a : acc) (x : hash) (idx : N) (proof : list hash) : bool :=
  match nth_error a (length proof) with
  | Some (Some r) => hash_eqb r (proofRootN H x idx proof)
  | _ => false
  end.

Lemma contains_verifies a l proof : contains_leaf H a l proof = verifies a (leaf_hash H l) (eidx l) proof.
Proof. reflexivity. Qed.

Lemma hash_eqb_refl x : hash_eqb x x = true.
Proof. unfold hash_eqb. destruct (hash_eq_dec x x); congruence. Qed.
Lemma hash_eqb_eq x y : hash_eqb x y = true -> x = y.
Proof. unfold hash_eqb. destruct (hash_eq_dec x y); congruence. Qed.

(* completeness: the naive proof of every leaf verifies against the roots *)
Theorem naive_proof_complete L j x : nth_error L (N.to_nat j) = Some x ->
  verifies (roots L) x j (naive_proof H L j) = true.
Proof.
  intros Hx.
  assert (Hj : (j < size (forest_of L))%N).
  { rewrite forest_leaves. assert (N.to_nat j < length L)%nat by (apply nth_error_Some; congruence). lia. }
  destruct (locate_some _ j Hj) as (t & r & Hloc).
  destruct (locate_digit _ _ _ _ Hloc) as (i & Hd & Hr).
  destruct (wf_nth 0 _ i t (forest_wf L) Hd) as [Hp Hh]. cbn in Hh. subst i. rewrite (leaves_len t Hp) in Hr.
  rewrite <- (forest_leaves L), (locate_nth _ _ _ _ Hloc), <- get_path in Hx by assumption. rename Hx into Hget.
  destruct (sibs_length hash node t _ x Hp Hget) as [Ls Lp].
  unfold naive_proof, verifies. rewrite Hloc, rev_length, Ls.
  unfold roots, roots_of. rewrite nth_error_map, Hd. simpl.
  unfold proofRootN. rewrite rev_length, Ls, lsb_bits_path, (locate_mod 0 _ _ _ _ (forest_wf L) Hloc).
  rewrite (proof_complete hash (Acc.node H) t _ x Hp Hget). apply hash_eqb_refl.
Qed.

(* soundness: whatever verifies is the true leaf at that position *)
Theorem verifies_sound L x idx proof : verifies (roots L) x idx proof = true ->
  (exists j, nth_error L (N.to_nat j) = Some x /\ (j mod 2 ^ N.of_nat (length proof) = idx mod 2 ^ N.of_nat (length proof))%N /\
             proof = naive_proof H L j)
  \/ NodeCollision hash node.
Proof.
  unfold verifies, roots, roots_of. rewrite nth_error_map.
  destruct (nth_error (forest_of L) (length proof)) as [[t|]|] eqn:Hd; simpl; try discriminate.
  intros E. apply hash_eqb_eq in E.
  destruct (wf_nth 0 _ _ t (forest_wf L) Hd) as [Hp Hh]. simpl in Hh. pose proof (leaves_len t Hp) as Ll.
  unfold proofRootN in E. rewrite lsb_bits_path, <- Hh in *.
  set (r := (idx mod 2 ^ N.of_nat (height t))%N) in *.
  assert (Hr : (r < 2 ^ N.of_nat (height t))%N) by (apply N.mod_lt, N.pow_nonzero; lia).
  rewrite <- (rev_involutive proof) in E.
  destruct (proof_sound hash hash_eq_dec (Acc.node H) t (path (height t) r) x (rev proof) Hp (path_length _ _)
              ltac:(rewrite rev_length; lia) (eq_sym E)) as [[Hg Hs]|C]; [left | right; exact C].
  destruct (locate_at _ _ t r Hd ltac:(lia)) as [j Hloc]. exists j. split; [|split].
  - rewrite <- (forest_leaves L) at 1. rewrite (locate_nth _ _ _ _ Hloc), <- get_path by assumption. exact Hg.
  - apply (locate_mod 0 _ _ _ _ (forest_wf L) Hloc).
  - unfold naive_proof. rewrite Hloc, <- Hs. symmetry. apply rev_involutive.
Qed.

(* leaves commit to their own index and spent flag *)
Definition LeafCollision : Prop := exists a b : eleaf, a <> b /\ leaf_hash H a = leaf_hash H b.
Definition wf_leaves (L : list eleaf) : Prop := forall j l, nth_error L j = Some l -> eidx l = N.of_nat j.
Definition lhashes (L : list eleaf) : list hash := map (leaf_hash H) L.

Lemma eleaf_eq_dec (a b : eleaf) : {a = b} + {a <> b}.
Proof. decide equality; [apply bool_dec|apply N.eq_dec|apply hash_eq_dec]. Qed.

Theorem membership_sound L l proof : wf_leaves L ->
  contains_leaf H (roots (lhashes L)) l proof = true ->
  (nth_error L (N.to_nat (eidx l)) = Some l /\ proof = naive_proof H (lhashes L) (eidx l))
  \/ NodeCollision hash node \/ LeafCollision.
Proof.
  intros Hwf Hc. rewrite contains_verifies in Hc.
  destruct (verifies_sound _ _ _ _ Hc) as [(j & Hn & _ & Hp)|C]; [|right; left; exact C].
  unfold lhashes in Hn. rewrite nth_error_map in Hn.
  destruct (nth_error L (N.to_nat j)) as [l'|] eqn:Hl'; [|discriminate]. simpl in Hn. inversion Hn as [Hh].
  destruct (eleaf_eq_dec l' l) as [->|Hne].
  - left. pose proof (Hwf _ _ Hl') as Hi. rewrite N2Nat.id in Hi. subst j. auto.
  - right; right. exists l', l. auto.
Qed.

Theorem member_complete L k l : wf_leaves L -> nth_error L k = Some l ->
  contains_leaf H (roots (lhashes L)) l (naive_proof H (lhashes L) (N.of_nat k)) = true.
Proof.
  intros Hwf Hn. rewrite contains_verifies. rewrite (Hwf _ _ Hn).
  apply naive_proof_complete. rewrite Nat2N.id. unfold lhashes. rewrite nth_error_map, Hn. reflexivity.
Qed.

Lemma nth_set_nth {A} k (x : A) L j :
  nth_error (set_nth k x L) j =
  if Nat.eqb j k then (if (k <? length L)%nat then Some x else None) else nth_error L j.
Proof.
  revert L j. induction k as [|k IH]; intros [|a L] j; unfold set_nth in *; simpl.
  - destruct j; reflexivity.
  - destruct j; reflexivity.
  - destruct j as [|j]; [reflexivity|]. simpl. destruct (j =? k)%nat; destruct j; reflexivity.
  - destruct j as [|j]; [reflexivity|]. simpl. rewrite IH. reflexivity.
Qed.

Lemma set_nth_wf L u : wf_leaves L -> wf_leaves (set_nth (N.to_nat (eidx u)) u L).
Proof.
  intros Hwf j l. rewrite nth_set_nth. destruct (Nat.eqb_spec j (N.to_nat (eidx u))) as [->|Hne].
  - destruct (N.to_nat (eidx u) <? length L)%nat; [|discriminate]. intros E; inversion E; subst. lia.
  - apply Hwf.
Qed.

Lemma add_all_wf L xs : wf_leaves L -> wf_leaves (add_all L xs).
Proof using.
  clear H. revert L. induction xs as [|[e s] xs IH]; intros L Hwf; simpl; auto.
  apply IH. intros j l. destruct (Nat.lt_ge_cases j (length L)) as [Hlt|Hge].
  - rewrite nth_error_app1 by exact Hlt. apply Hwf.
  - rewrite nth_error_app2 by exact Hge. destruct (j - length L)%nat as [|m] eqn:Hm; simpl.
    + intros E; inversion E; subst; simpl. f_equal. lia.
    + destruct m; discriminate.
Qed.

Theorem run_wf bs : wf_leaves (run bs).
Proof using H. (* the statement does not mention H; its users in Props pass it as the first argument *)
  unfold run. assert (G : forall L, wf_leaves L -> wf_leaves (fold_left apply_block bs L)).
  { induction bs as [|b bs IH]; intros L Hwf; simpl; auto. apply IH. unfold apply_block. apply add_all_wf.
    generalize (b_updated b). intros us. revert L Hwf. induction us as [|u us IHu]; intros L Hwf; simpl; auto.
    apply IHu. apply set_nth_wf; exact Hwf. }
  apply G. intros j l Hn. destruct j; discriminate.
Qed.

End AccProofs.
