(* On the representation invariant, the plain root of an aligned block of 2^h leaves, inserted at height h, stands for
   the block's leaves inserted one by one (RgRpv1.ins_block: the count being a multiple of 2^h, the h lowest digits are empty). *)
From Coq Require Import List NArith Arith Bool Lia.
From Sia Require Import Prim.Tok Merkle.Tree Merkle.Forest Merkle.Rhp Merkle.RhpProofs Merkle.RhpRoot Merkle.RgAppend Merkle.RgRpv1.
Import ListNotations.

Section RStruct.
Variable H : bytes -> bytes.
Notation node := (Rhp.node H).
Notation mroot := (Rhp.mroot H).

Lemma repr_lowfree L ds h : Repr hash node L ds -> (exists k, length L = k * 2 ^ h)%nat -> lowfree h ds.
Proof.
  intros R (k & E). apply (dval_lowfree H h ds (N.of_nat k)). rewrite (repr_dval H L ds R), E, Nat2N.inj_mul, Nat2N.inj_pow. reflexivity.
Qed.

Theorem insert_aligned L ds h (l : list hash) : Repr hash node L ds -> (exists k, length L = k * 2 ^ h)%nat -> length l = (2 ^ h)%nat ->
  Repr hash node (L ++ l) (insert_node H (mroot l) h ds).
Proof.
  intros R Dv Hl. rewrite <- (ins_block H h l ds Hl (repr_lowfree L ds h R Dv)). apply acc_digits_repr. exact R.
Qed.
End RStruct.
