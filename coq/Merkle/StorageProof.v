(* Storage proofs (consensus/merkle.go storageProofRoot, the v1 twin in validation.go): the honest proof of any leaf
   of a file of any size -- the siblings along the path in the plainly defined tree [mroot] -- is accepted:
   the verifier's rule "bit j of the leaf index below the merge height with the last leaf, left siblings above it"
   reconstructs exactly the path of leaf i among n leaves.  Section Sound: a proof of the honest length that verifies is
   the honest proof of the true leaf, or two pairs with one node hash are in hand (every length: StorageSound). *)
From Coq Require Import List ZArith NArith Arith Bool Lia.
From Sia Require Import Prim.Result Prim.Tok Merkle.Rhp Merkle.RhpRoot Ledger.Types Ledger.Mid Ledger.Validate.
From Sia Require Merkle.Tree.
Import ListNotations.

(* a perfect tree split at 2^b has two halves of 2^b leaves *)
Lemma nat_pow2_halves a b m : (0 < m <= 2 ^ b)%nat -> (2 ^ b + m = 2 ^ a)%nat -> a = S b /\ m = (2 ^ b)%nat.
Proof.
  intros Hm E. assert (b < a)%nat by (apply (Nat.pow_lt_mono_r_iff 2); lia).
  assert (a <= S b)%nat by (apply (Nat.pow_le_mono_r_iff 2); [lia | rewrite Nat.pow_succ_r'; lia]).
  assert (a = S b) by lia. subst a. rewrite Nat.pow_succ_r' in E. lia.
Qed.

Local Open Scope Z_scope.
(* bits.Len64, convertible with Validate.bitlen; [blen (Z.lxor i m)] is the height at which the paths of leaves i and m merge *)
Definition blen (x : Z) : Z := if x =? 0 then 0 else Z.log2 x + 1.

Lemma blen_nonneg x : 0 <= blen x.
Proof. unfold blen. destruct (x =? 0); [lia|]. pose proof (Z.log2_nonneg x). lia. Qed.
Lemma blen_above x j : 0 <= x -> blen x <= j -> Z.testbit x j = false.
Proof.
  unfold blen. intros Hx Hj. destruct (Z.eqb_spec x 0) as [->|NZ]; [apply Z.bits_0|]. apply Z.bits_above_log2; lia.
Qed.
Lemma blen_le_bits x a : 0 <= x -> 0 <= a -> (forall j, a <= j -> Z.testbit x j = false) -> blen x <= a.
Proof.
  intros Hx Ha B. unfold blen. destruct (Z.eqb_spec x 0) as [|NZ]; [lia|]. destruct (Z.lt_ge_cases (Z.log2 x) a) as [|G]; [lia|].
  pose proof (Z.bit_log2 x ltac:(lia)) as T. rewrite (B _ G) in T. discriminate.
Qed.
Lemma blen_top x : 0 <= x -> 1 <= blen x -> Z.testbit x (blen x - 1) = true.
Proof.
  unfold blen. intros Hx Hb. destruct (Z.eqb_spec x 0) as [|NZ]; [lia|].
  replace (Z.log2 x + 1 - 1) with (Z.log2 x) by lia. apply Z.bit_log2. lia.
Qed.
(* at and above their merge height two numbers have the same bits *)
Lemma bits_above_merge x m j : 0 <= x -> 0 <= m -> blen (Z.lxor x m) <= j -> Z.testbit x j = Z.testbit m j.
Proof. intros Hx Hm Hj. apply xorb_eq. rewrite <- Z.lxor_spec. apply blen_above; [apply Z.lxor_nonneg; lia | exact Hj]. Qed.
Lemma testbit_small x a j : 0 <= x < 2 ^ a -> a <= j -> Z.testbit x j = false.
Proof.
  intros Hx Hj. destruct (Z.eq_dec x 0) as [->|NZ]; [apply Z.bits_0|].
  apply Z.bits_above_log2; [lia|]. assert (Z.log2 x < a) by (apply Z.log2_lt_pow2; lia). lia.
Qed.
Lemma Z_pow2_S a : 0 <= a -> 2 ^ (a + 1) = 2 * 2 ^ a.
Proof. intros Ha. rewrite Z.pow_add_r by lia. lia. Qed.

Lemma testbit_split i a j : 0 <= a -> 2 ^ a <= i < 2 ^ (a + 1) -> Z.testbit i j = if j =? a then true else Z.testbit (i - 2 ^ a) j.
Proof.
  intros Ha Hi. pose proof (Z_pow2_S a Ha) as E. set (x := i - 2 ^ a). assert (Hx : 0 <= x < 2 ^ a) by lia.
  replace i with (x + 2 ^ a) by (unfold x; ring).
  assert (L0 : Z.land (2 ^ a) x = 0).
  { apply Z.bits_inj'. intros k Hk. rewrite Z.land_spec, Z.bits_0, Z.pow2_bits_eqb by lia.
    destruct (Z.eqb_spec a k) as [->|]; [|reflexivity]. rewrite (testbit_small x k k) by lia. reflexivity. }
  rewrite Z.add_comm, (Z.add_nocarry_lxor _ _ L0), Z.lxor_spec, Z.pow2_bits_eqb by lia.
  destruct (Z.eqb_spec j a) as [->|NE].
  - rewrite Z.eqb_refl, (testbit_small x a a) by lia. reflexivity.
  - destruct (Z.eqb_spec a j); [lia|]. destruct (Z.testbit x j); reflexivity.
Qed.
Lemma blen_low i m a : 0 <= a -> 0 <= i < 2 ^ a -> 2 ^ a <= m < 2 ^ (a + 1) -> blen (Z.lxor i m) = a + 1.
Proof.
  intros Ha Hi Hm. pose proof (Z_pow2_S a Ha) as E.
  assert (Tx : Z.testbit (Z.lxor i m) a = true).
  { rewrite Z.lxor_spec, (testbit_small i a a), (testbit_split m a a), Z.eqb_refl by lia. reflexivity. }
  unfold blen. destruct (Z.eqb_spec (Z.lxor i m) 0) as [E0|_]; [rewrite E0, Z.bits_0 in Tx; discriminate|].
  rewrite (Z.log2_bits_unique _ a Tx); [reflexivity|]. intros j Hj. rewrite Z.lxor_spec, !(testbit_small _ (a + 1) j) by lia. reflexivity.
Qed.
Lemma lxor_high i m a : 0 <= a -> 2 ^ a <= i < 2 ^ (a + 1) -> 2 ^ a <= m < 2 ^ (a + 1) -> Z.lxor i m = Z.lxor (i - 2 ^ a) (m - 2 ^ a).
Proof.
  intros Ha Hi Hm. pose proof (Z_pow2_S a Ha) as E.
  apply Z.bits_inj'. intros j Hj. rewrite !Z.lxor_spec, (testbit_split i a j), (testbit_split m a j) by lia.
  destruct (Z.eqb_spec j a) as [->|]; [|reflexivity].
  rewrite !(testbit_small _ a a) by lia. reflexivity.
Qed.
(* inside a perfect tree of 2^a leaves: above the merge height with the last leaf, the index bits are ones *)
Lemma ones_above i a j : 0 <= a -> 0 <= i < 2 ^ a -> 0 <= j < a -> blen (Z.lxor i (2 ^ a - 1)) <= j -> Z.testbit i j = true.
Proof.
  intros Ha Hi Hj B. assert (P : 0 < 2 ^ a) by (apply Z.pow_pos_nonneg; lia).
  rewrite (bits_above_merge i (2 ^ a - 1) j) by lia. replace (2 ^ a - 1) with (Z.ones a) by (rewrite Z.ones_equiv; lia).
  apply Z.ones_spec_low. lia.
Qed.

Section StorageProofs.
Variable H : bytes -> bytes.
Notation node := (Rhp.node H).
Notation mroot := (Rhp.mroot H).
Notation hash := bytes.

(* siblings along the path of leaf i in the plain tree, bottom-up *)
Fixpoint sp_prove (fuel : nat) (L : list hash) (i : nat) : list hash :=
  match fuel with
  | O => []
  | S f =>
    match L with
    | [] | [_] => []
    | _ => let k := split_point (length L) in
           if (i <? k)%nat then sp_prove f (firstn k L) i ++ [mroot (skipn k L)]
           else sp_prove f (skipn k L) (i - k) ++ [mroot (firstn k L)]
    end
  end.

(* the verifier: sibling j is on the left iff bit j of the index is set or j is at/above the merge height *)
Definition rule (i sth j : Z) : bool := Z.testbit i j || (sth <=? j).
Definition step (i sth : Z) (acc : hash * Z) (h : hash) : hash * Z :=
  let '(root, j) := acc in ((if rule i sth j then node h root else node root h), j + 1).
Definition fold_rule (x : hash) (i sth : Z) (proof : list hash) : hash := fst (fold_left (step i sth) proof (x, 0)).

Lemma fold_step_index i sth proof : forall x j, snd (fold_left (step i sth) proof (x, j)) = j + Z.of_nat (length proof).
Proof. induction proof as [|h p IH]; intros x j; cbn [fold_left step length]; [cbn; lia|]. rewrite IH. lia. Qed.
Lemma fold_rule_snoc x i sth p s :
  fold_rule x i sth (p ++ [s]) = if rule i sth (Z.of_nat (length p)) then node s (fold_rule x i sth p) else node (fold_rule x i sth p) s.
Proof.
  unfold fold_rule. rewrite fold_left_app. cbn [fold_left].
  pose proof (fold_step_index i sth p x 0) as I. destruct (fold_left (step i sth) p (x, 0)) as [r j]. cbn [snd fst step] in *. subst j. reflexivity.
Qed.
Lemma fold_rule_ext x i1 s1 i2 s2 p : (forall j, 0 <= j < Z.of_nat (length p) -> rule i1 s1 j = rule i2 s2 j) ->
  fold_rule x i1 s1 p = fold_rule x i2 s2 p.
Proof.
  induction p as [|h p IH] using rev_ind; intros E; [reflexivity|].
  rewrite !fold_rule_snoc. rewrite app_length in E. cbn [length] in E.
  rewrite IH by (intros j Hj; apply E; lia). rewrite (E (Z.of_nat (length p))) by lia. reflexivity.
Qed.

Lemma rule_high i sth j : sth <= j -> rule i sth j = true.
Proof. intros Hj. unfold rule. destruct (Z.leb_spec sth j); [apply orb_true_r | lia]. Qed.
Lemma rule_low i sth j : j < sth -> rule i sth j = Z.testbit i j.
Proof. intros Hj. unfold rule. destruct (Z.leb_spec sth j); [lia | apply orb_false_r]. Qed.

(* the merge height of leaf i with the last of n leaves *)
Notation merge i n := (blen (Z.lxor (Z.of_nat i) (Z.of_nat n - 1))).

(* What the split of n leaves at 2^a does to the verifier's rule.  A leaf of the left, perfect half merges with the last
   leaf at the top, turns left there, and below the top the rule of the whole tree is the rule of that half (above its
   merge height with the last leaf of the half, the index bits are ones). *)
Lemma merge_left i n a : (i < 2 ^ a)%nat -> (2 ^ a < n <= 2 * 2 ^ a)%nat ->
  merge i n = Z.of_nat a + 1 /\ Z.testbit (Z.of_nat i) (Z.of_nat a) = false /\
  forall j, 0 <= j < Z.of_nat a -> rule (Z.of_nat i) (Z.of_nat a + 1) j = rule (Z.of_nat i) (merge i (2 ^ a)) j.
Proof.
  intros Hi Hn. pose proof (Nat2Z.inj_pow 2 a : Z.of_nat (2 ^ a) = 2 ^ Z.of_nat a) as PZ. pose proof (Z_pow2_S (Z.of_nat a) ltac:(lia)) as PZ1.
  split; [apply blen_low; lia|]. split; [apply (testbit_small _ (Z.of_nat a)); lia|].
  intros j Hj. rewrite PZ, rule_low by lia. destruct (Z.lt_ge_cases j (blen (Z.lxor (Z.of_nat i) (2 ^ Z.of_nat a - 1)))) as [Lt|Ge].
  - rewrite rule_low by exact Lt. reflexivity.
  - rewrite rule_high by exact Ge. apply (ones_above _ (Z.of_nat a)); lia.
Qed.
(* A leaf of the right half has the merge height it has in that half, at most a, and the rule ignores the split bit. *)
Lemma merge_right i n k m a : i = (2 ^ a + k)%nat -> n = (2 ^ a + m)%nat -> (k < m <= 2 ^ a)%nat ->
  merge i n = merge k m /\ merge k m <= Z.of_nat a /\
  forall s j, s <= Z.of_nat a -> 0 <= j -> rule (Z.of_nat i) s j = rule (Z.of_nat k) s j.
Proof.
  intros -> -> Hk. pose proof (Nat2Z.inj_pow 2 a : Z.of_nat (2 ^ a) = 2 ^ Z.of_nat a) as PZ. pose proof (Z_pow2_S (Z.of_nat a) ltac:(lia)) as PZ1.
  split; [rewrite (lxor_high _ _ (Z.of_nat a)) by lia; do 2 f_equal; lia|]. split.
  { apply blen_le_bits; [apply Z.lxor_nonneg; lia | lia |]. intros j Hj. rewrite Z.lxor_spec, !(testbit_small _ (Z.of_nat a) j) by lia. reflexivity. }
  intros s j Hs Hj. destruct (Z.lt_ge_cases j (Z.of_nat a)) as [Lt|Ge].
  - unfold rule. rewrite (testbit_split (Z.of_nat (2 ^ a + k)) (Z.of_nat a) j) by lia. destruct (Z.eqb_spec j (Z.of_nat a)); [lia|]. do 3 f_equal. lia.
  - rewrite !rule_high by lia. reflexivity.
Qed.

Lemma sp_prove_short fuel L i : (length L < 2)%nat -> sp_prove fuel L i = [].
Proof. intros Ln. destruct fuel, L as [|x [|y r]]; cbn in Ln; try lia; reflexivity. Qed.

Lemma sp_prove_step f L i : (2 <= length L)%nat ->
  sp_prove (S f) L i =
    let k := split_point (length L) in
    if (i <? k)%nat then sp_prove f (firstn k L) i ++ [mroot (skipn k L)] else sp_prove f (skipn k L) (i - k) ++ [mroot (firstn k L)].
Proof. intros Ln. destruct L as [|x [|y r]]; cbn [length] in Ln; try lia. reflexivity. Qed.

(* The shape of the plain tree, as an induction principle: at most one leaf, or a perfect left half of 2^a leaves and a
   right half of at most as many; the root is the node over the halves, and the honest proof is that of the half the
   leaf is in, followed by the root of the other half. *)
Lemma sp_ind (P : list hash -> Prop) :
  (forall L, (length L < 2)%nat -> P L) ->
  (forall a (L1 L2 : list hash), length L1 = (2 ^ a)%nat -> (0 < length L2 <= 2 ^ a)%nat ->
     mroot (L1 ++ L2) = node (mroot L1) (mroot L2) ->
     (forall f i, sp_prove (S f) (L1 ++ L2) i =
        if (i <? 2 ^ a)%nat then sp_prove f L1 i ++ [mroot L2] else sp_prove f L2 (i - 2 ^ a) ++ [mroot L1]) ->
     P L1 -> P L2 -> P (L1 ++ L2)) ->
  forall L, P L.
Proof.
  intros Base Step L. induction L as [L IH] using (induction_ltof1 _ (@length hash)). unfold ltof in IH.
  destruct (le_lt_dec 2 (length L)) as [Ln|L1]; [|exact (Base L L1)].
  destruct (split_point_spec (length L) Ln) as (a & E & A & B). rewrite Nat.pow_succ_r' in B. pose proof (pow2_pos_nat a).
  rewrite <- (firstn_skipn (2 ^ a) L). apply (Step a); try (apply IH); rewrite ?firstn_length, ?skipn_length; try lia; rewrite firstn_skipn.
  - rewrite (mroot_unfold H L Ln). unfold Rhp.hash. rewrite E. reflexivity.
  - intros f i. rewrite (sp_prove_step f L i Ln). unfold Rhp.hash in *. rewrite E. reflexivity.
Qed.

Lemma sp_prove_fuel L : forall i f1 f2, (length L <= f1)%nat -> (length L <= f2)%nat -> sp_prove f1 L i = sp_prove f2 L i.
Proof.
  induction L as [L L1 | a L1 L2 Len1 Len2 _ Hp IH1 IH2] using sp_ind; intros i f1 f2 A B.
  - rewrite !sp_prove_short by exact L1. reflexivity.
  - rewrite app_length in A, B. pose proof (pow2_pos_nat a). destruct f1 as [|f1], f2 as [|f2]; try lia. rewrite !Hp.
    destruct (i <? 2 ^ a)%nat; [rewrite (IH1 i f1 f2) by lia | rewrite (IH2 (i - 2 ^ a)%nat f1 f2) by lia]; reflexivity.
Qed.

Lemma sp_prove_length_perfect L : forall a fuel i, (length L = 2 ^ a)%nat -> (length L <= fuel)%nat ->
  length (sp_prove fuel L i) = a.
Proof.
  induction L as [L L1 | b L1 L2 Len1 Len2 _ Hp IH1 IH2] using sp_ind; intros a fuel i HL Hf.
  - rewrite sp_prove_short by exact L1. destruct a; [reflexivity|]. pose proof (pow2_pos_nat a). rewrite Nat.pow_succ_r' in HL. lia.
  - rewrite app_length in HL, Hf. destruct fuel as [|f]; [lia|]. rewrite Hp.
    destruct (nat_pow2_halves a b (length L2)) as [-> Em]; [lia..|].
    destruct (i <? 2 ^ b)%nat; rewrite app_length; [rewrite (IH1 b) | rewrite (IH2 b)]; cbn [length]; lia.
Qed.

(* the honest proof folds to the plain root under the verifier's rule, and is at least as long as the merge height *)
Theorem sp_prove_verifies fuel : forall L i d, (i < length L)%nat -> (length L <= fuel)%nat ->
  let sth := blen (Z.lxor (Z.of_nat i) (Z.of_nat (length L) - 1)) in
  fold_rule (nth i L d) (Z.of_nat i) sth (sp_prove fuel L i) = mroot L /\ sth <= Z.of_nat (length (sp_prove fuel L i)).
Proof.
  intros L. revert fuel. induction L as [L L1 | a L1 L2 Len1 Len2 Em Hp IH1 IH2] using sp_ind; intros fuel i d Hi Hf; cbv zeta.
  - destruct L as [|x [|y r]]; cbn in Hi, L1; try lia. assert (i = 0)%nat by lia. subst i. rewrite sp_prove_short by (cbn; lia). cbn. split; [reflexivity | lia].
  - rewrite app_length, Len1 in *. pose proof (pow2_pos_nat a). destruct fuel as [|f]; [lia|]. rewrite Em, Hp.
    destruct (Nat.ltb_spec i (2 ^ a)) as [Lt|Ge]; rewrite app_length, fold_rule_snoc; cbn [length].
    + rewrite app_nth1 by lia. destruct (IH1 f i d) as [F1 _]; [lia..|]. cbv zeta in F1.
      destruct (merge_left i (2 ^ a + length L2) a) as (-> & Tb & R); [lia..|].
      rewrite (sp_prove_length_perfect L1 a) by lia. split; [|lia].
      rewrite rule_low, Tb by lia. f_equal. rewrite <- F1. apply fold_rule_ext. intros j Hj.
      rewrite (sp_prove_length_perfect L1 a) in Hj by lia. apply R. exact Hj.
    + rewrite app_nth2, Len1 by lia. destruct (IH2 f (i - 2 ^ a)%nat d) as [F2 S2]; [lia..|]. cbv zeta in F2, S2.
      destruct (merge_right i (2 ^ a + length L2) (i - 2 ^ a) (length L2) a) as (-> & Hs & R); [lia | reflexivity | lia |]. split; [|lia].
      rewrite rule_high by exact S2. f_equal. rewrite <- F2. apply fold_rule_ext. intros j Hj. apply R; [exact Hs | lia].
Qed.

(* sp_root_v2 runs two loops: over the hashes below the merge height the index bit alone decides the side ([tstep]), over
   the rest every sibling goes on the left; together they are [fold_rule].  sp_root_v1 is [fold_rule] as it is written. *)
Definition tstep (i : Z) (acc : hash * Z) (h : hash) : hash * Z :=
  let '(root, j) := acc in ((if Z.testbit i j then node h root else node root h), j + 1).
Lemma tfold_is_rule i sth p : forall x j0, j0 + Z.of_nat (length p) <= sth ->
  fold_left (tstep i) p (x, j0) = fold_left (step i sth) p (x, j0).
Proof.
  induction p as [|h p IH]; intros x j0 Hs; [reflexivity|]. cbn [fold_left tstep step length] in *.
  rewrite rule_low by lia. apply IH. lia.
Qed.
Lemma high_is_rule i sth p : forall x j0, sth <= j0 ->
  fold_left (step i sth) p (x, j0) = (fold_left (fun root h => node h root) p x, j0 + Z.of_nat (length p)).
Proof.
  induction p as [|h p IH]; intros x j0 Hs; cbn [fold_left step length]; [f_equal; lia|].
  rewrite rule_high, IH by lia. f_equal. lia.
Qed.

Lemma node_same l r : Validate.node H l r = node l r. Proof. reflexivity. Qed.

Theorem sp_root_v2_is_fold x i filesize proof :
  let last := if filesize mod 64 =? 0 then (filesize / 64 - 1) mod 2 ^ 64 else filesize / 64 in
  let sth := blen (Z.lxor i last) in
  0 <= sth <= Z.of_nat (length proof) -> sp_root_v2 H x i filesize proof = fold_rule x i sth proof.
Proof.
  cbv zeta. set (last := if filesize mod 64 =? 0 then _ else _). intros Hs. unfold sp_root_v2. fold last.
  change (Validate.bitlen (Z.lxor i last)) with (blen (Z.lxor i last)). set (sth := blen (Z.lxor i last)) in *.
  destruct (Nat.ltb_spec (length proof) (Z.to_nat sth)); [lia|].
  unfold fold_rule. rewrite <- (firstn_skipn (Z.to_nat sth) proof) at 3. rewrite fold_left_app.
  assert (L1 : Z.of_nat (length (firstn (Z.to_nat sth) proof)) = sth) by (rewrite firstn_length; lia).
  change (fun (acc : bytes * Z) (h : bytes) => let '(root, i0) := acc in (if Z.testbit i i0 then Validate.node H h root else Validate.node H root h, i0 + 1)) with (tstep i).
  rewrite <- (tfold_is_rule i sth (firstn (Z.to_nat sth) proof) x 0) by lia.
  pose proof (fold_step_index i sth (firstn (Z.to_nat sth) proof) x 0) as I. rewrite <- (tfold_is_rule i sth _ x 0) in I by lia.
  destruct (fold_left (tstep i) (firstn (Z.to_nat sth) proof) (x, 0)) as [r0 j0]. cbn [fst snd] in *.
  rewrite high_is_rule by lia. reflexivity.
Qed.

Theorem sp_root_v1_is_fold i filesize leaf proof :
  sp_root_v1 H i filesize leaf proof = fold_rule (H (0%N :: pad64 leaf)) i (blen (Z.lxor i (last_leaf_index filesize))) proof.
Proof. reflexivity. Qed.

(* number of 64-byte leaves of a file *)
Definition sp_num_leaves (filesize : Z) : Z := filesize / 64 + (if filesize mod 64 =? 0 then 0 else 1).

Lemma last_is_pred filesize : 0 < filesize < 2 ^ 64 ->
  (if filesize mod 64 =? 0 then (filesize / 64 - 1) mod 2 ^ 64 else filesize / 64) = sp_num_leaves filesize - 1.
Proof.
  intros Hf. unfold sp_num_leaves. pose proof (Z.div_mod filesize 64 ltac:(lia)). pose proof (Z.mod_pos_bound filesize 64 ltac:(lia)).
  destruct (Z.eqb_spec (filesize mod 64) 0); [|lia]. rewrite Z.mod_small; lia.
Qed.

(* completeness, v2: for a file of any size, the siblings of leaf i in the plain tree over its leaf hashes are accepted
   against the plain root *)
Theorem storage_proof_v2_complete (L : list hash) filesize i d : 0 < filesize < 2 ^ 64 ->
  Z.of_nat (length L) = sp_num_leaves filesize -> (i < length L)%nat ->
  sp_root_v2 H (nth i L d) (Z.of_nat i) filesize (sp_prove (length L) L i) = mroot L.
Proof.
  intros Hf Hn Hi. destruct (sp_prove_verifies (length L) L i d Hi (Nat.le_refl _)) as [F S]. cbv zeta in F, S.
  rewrite sp_root_v2_is_fold; rewrite (last_is_pred filesize Hf), <- Hn.
  - exact F.
  - split; [apply blen_nonneg | exact S].
Qed.

(* completeness, v1 (all three leaf-handling eras differ only in which bytes of the last leaf are hashed): the same
   siblings are accepted for the leaf data whose padded hash is leaf i *)
Theorem storage_proof_v1_complete (L : list hash) filesize i d leaf : 0 < filesize < 2 ^ 64 ->
  Z.of_nat (length L) = sp_num_leaves filesize -> (i < length L)%nat -> nth i L d = H (0%N :: pad64 leaf) ->
  sp_root_v1 H (Z.of_nat i) filesize leaf (sp_prove (length L) L i) = mroot L.
Proof.
  intros Hf Hn Hi Hleaf. destruct (sp_prove_verifies (length L) L i d Hi (Nat.le_refl _)) as [F _]. cbv zeta in F.
  rewrite sp_root_v1_is_fold, <- Hleaf.
  assert (E : last_leaf_index filesize = Z.of_nat (length L) - 1).
  { rewrite Hn. rewrite <- (last_is_pred filesize Hf). unfold last_leaf_index. destruct (filesize mod 64 =? 0); reflexivity. }
  rewrite E. exact F.
Qed.
End StorageProofs.

Section Sound.
Variable H : bytes -> bytes.
Notation node := (Rhp.node H).
Notation mroot := (Rhp.mroot H).
Notation hash := bytes.

Definition NodeCollision : Prop := exists a b c d : hash, (a, b) <> (c, d) /\ node a b = node c d.

Lemma bytes_eq_dec : forall a b : hash, {a = b} + {a <> b}.
Proof. apply list_eq_dec. apply N.eq_dec. Qed.

(* two proofs of the same length that fold to the same value under the same rule are the same proof of the same leaf,
   or a collision of the node hash is in hand *)
Lemma fold_rule_injective i sth : forall p q x y, length p = length q ->
  fold_rule H x i sth p = fold_rule H y i sth q -> (x = y /\ p = q) \/ NodeCollision.
Proof.
  induction p as [|s p IH] using rev_ind; intros q x y L E.
  - destruct q; [|discriminate]. left. split; [exact E | reflexivity].
  - destruct q as [|t q] using rev_ind; [rewrite app_length in L; cbn in L; lia|]. clear IHq.
    rewrite !app_length in L. cbn [length] in L. assert (L' : length p = length q) by lia.
    rewrite !fold_rule_snoc, L' in E.
    assert (Es : (s = t /\ fold_rule H x i sth p = fold_rule H y i sth q) \/ NodeCollision).
    { destruct (rule i sth _); destruct (Tree.node_inj bytes bytes_eq_dec _ _ _ _ _ E) as [[? ?]|C]; ((left; split; assumption) || (right; exact C)). }
    destruct Es as [[-> Ef]|C]; [|right; exact C].
    destruct (IH q x y L' Ef) as [[-> ->]|C]; [left; split; reflexivity | right; exact C].
Qed.

(* soundness for proofs of the honest length: what verifies is the true leaf with its true siblings *)
Theorem storage_proof_v2_sound_same_length (L : list hash) filesize i d x proof : 0 < filesize < 2 ^ 64 ->
  Z.of_nat (length L) = sp_num_leaves filesize -> (i < length L)%nat ->
  length proof = length (sp_prove H (length L) L i) ->
  sp_root_v2 H x (Z.of_nat i) filesize proof = mroot L ->
  (x = nth i L d /\ proof = sp_prove H (length L) L i) \/ NodeCollision.
Proof.
  intros Hf Hn Hi Hl Hv. destruct (sp_prove_verifies H (length L) L i d Hi (Nat.le_refl _)) as [F S]. cbv zeta in F, S.
  rewrite sp_root_v2_is_fold in Hv; rewrite (last_is_pred filesize Hf), <- Hn in *.
  - rewrite <- F in Hv. apply (fold_rule_injective _ _ _ _ _ _ Hl Hv).
  - rewrite Hl. split; [apply blen_nonneg | exact S].
Qed.
End Sound.
