(* Soundness of sector-range proofs: for fixed (n, start, end) the verifier evaluates one fixed tree expression over the
   proof hashes and the covered roots, so whatever it accepts against the plain root is the honest proof with the true
   roots -- or two different pairs with the same node hash are in hand. *)
From Coq Require Import List NArith Arith Bool Lia.
From Sia Require Import Prim.Tok Merkle.Rhp.
Import ListNotations.
Local Open Scope N_scope.

Lemma hash_eqb_refl (x : hash) : hash_eqb x x = true.
Proof. unfold hash_eqb. destruct (list_eq_dec N.eq_dec x x); [reflexivity | contradiction]. Qed.
Lemma hash_eqb_true (a b : hash) : hash_eqb a b = true -> a = b.
Proof. unfold hash_eqb. destruct (list_eq_dec N.eq_dec a b); [intros _; assumption | discriminate]. Qed.
Lemma guard_true (b x : bool) : (if negb b then false else x) = true -> b = true /\ x = true.
Proof. destruct b; cbn; [intros E; split; [reflexivity | exact E] | discriminate]. Qed.

(* Rhp.carry, insert_node, pa_root_aux, insert_range and the body of verify_range_proof, over any carrier *)
Section Poly.
Variable X : Type.
Variable nd : X -> X -> X.
Fixpoint pcarry (h : X) (ds : list (option X)) : list (option X) :=
  match ds with
  | [] => [Some h]
  | None :: ds => Some h :: ds
  | Some t :: ds => None :: pcarry (nd t h) ds
  end.
Fixpoint pins (h : X) (height : nat) (ds : list (option X)) : list (option X) :=
  match height with
  | O => pcarry h ds
  | S k => match ds with [] => None :: pins h k [] | d :: ds => d :: pins h k ds end
  end.
Fixpoint proot_aux (acc : option X) (ds : list (option X)) : option X :=
  match ds with
  | [] => acc
  | None :: ds => proot_aux acc ds
  | Some t :: ds => proot_aux (Some (match acc with None => t | Some r => nd t r end)) ds
  end.
Fixpoint pins_range (fuel : nat) (acc : list (option X)) (proof : list X) (i j : N) : list (option X) * list X :=
  match fuel with
  | O => (acc, proof)
  | S f =>
    match proof with
    | [] => (acc, proof)
    | p :: rest => if i <? j then let s := next_subtree_size i j in pins_range f (pins p (N.to_nat (tz64 s)) acc) rest (i + s) j
                   else (acc, proof)
    end
  end.
Definition pverify_state (proof roots : list X) (start end_ : N) : list (option X) * list X :=
  let '(acc, proof) := pins_range FUEL [] proof 0 start in
  let acc := fold_left (fun a h => pins h 0 a) roots acc in
  pins_range FUEL acc proof end_ (Rhp.W - 1).
Definition pverify_root (proof roots : list X) (start end_ : N) : option X := proot_aux None (fst (pverify_state proof roots start end_)).
Definition pverify_left (proof roots : list X) (start end_ : N) : list X := snd (pverify_state proof roots start end_).
End Poly.
Arguments pcarry {X}. Arguments pins {X}. Arguments proot_aux {X}. Arguments pins_range {X}. Arguments pverify_root {X}. Arguments pverify_state {X}. Arguments pverify_left {X}.

(* the model's accumulator and consume loop are the generic program at (hash, node): the bodies are convertible *)
Section Model.
Variable H : bytes -> bytes.
Notation node := (Rhp.node H).
Lemma rootaux_p ds acc : pa_root_aux H acc ds = proot_aux node acc ds.
Proof. reflexivity. Qed.
Lemma range_p fuel acc proof i j : insert_range H fuel acc proof i j = pins_range node fuel acc proof i j.
Proof. reflexivity. Qed.
Lemma fold_p roots acc : fold_left (fun a h => insert_node H h 0 a) roots acc = fold_left (fun a h => pins node h 0 a) roots acc.
Proof. reflexivity. Qed.
End Model.

Section Hom.
Variables X Y : Type.
Variable nd : X -> X -> X.
Variable nd' : Y -> Y -> Y.
Variable f : X -> Y.
Hypothesis Hf : forall a b, f (nd a b) = nd' (f a) (f b).
Notation mf := (map (option_map f)).
Lemma hom_carry h ds : mf (pcarry nd h ds) = pcarry nd' (f h) (mf ds).
Proof. revert h. induction ds as [|[t|] ds IH]; intros h; cbn; [reflexivity| |reflexivity]. rewrite IH, Hf. reflexivity. Qed.
Lemma hom_ins h k : forall ds, mf (pins nd h k ds) = pins nd' (f h) k (mf ds).
Proof.
  induction k as [|k IH]; intros ds; cbn [pins]; [apply hom_carry|].
  destruct ds as [|d ds]; cbn [map]; f_equal; [exact (IH []) | apply IH].
Qed.
Lemma hom_root ds : forall acc, option_map f (proot_aux nd acc ds) = proot_aux nd' (option_map f acc) (mf ds).
Proof.
  induction ds as [|[t|] ds IH]; intros acc; cbn [proot_aux map option_map]; [reflexivity| |apply IH].
  rewrite IH. destruct acc; cbn [option_map]; rewrite ?Hf; reflexivity.
Qed.
Lemma hom_range fuel : forall acc proof i j,
  (let '(a, r) := pins_range nd fuel acc proof i j in (mf a, map f r)) = pins_range nd' fuel (mf acc) (map f proof) i j.
Proof.
  induction fuel as [|fu IH]; intros acc proof i j; cbn [pins_range]; [reflexivity|].
  destruct proof as [|p rest]; cbn [map]; [reflexivity|]. destruct (i <? j); [|reflexivity]. cbv zeta.
  rewrite <- hom_ins. apply IH.
Qed.
Lemma hom_state proof roots s e :
  (let '(a, r) := pverify_state nd proof roots s e in (mf a, map f r)) = pverify_state nd' (map f proof) (map f roots) s e.
Proof.
  unfold pverify_state. pose proof (hom_range FUEL [] proof 0 s) as R1. destruct (pins_range nd FUEL [] proof 0 s) as [a1 r1].
  cbn [map] in R1. rewrite <- R1.
  assert (F : forall rs a, mf (fold_left (fun a h => pins nd h 0 a) rs a) = fold_left (fun a h => pins nd' h 0 a) (map f rs) (mf a)).
  { induction rs as [|x rs IH]; intros a; cbn [fold_left map]; [reflexivity|]. rewrite IH, hom_ins. reflexivity. }
  rewrite <- F. apply hom_range.
Qed.
Lemma hom_verify proof roots s e : option_map f (pverify_root nd proof roots s e) = pverify_root nd' (map f proof) (map f roots) s e.
Proof.
  unfold pverify_root. pose proof (hom_state proof roots s e) as E. destruct (pverify_state nd proof roots s e) as [a r].
  rewrite <- E. cbn [fst]. apply hom_root.
Qed.
Lemma hom_left proof roots s e : map f (pverify_left nd proof roots s e) = pverify_left nd' (map f proof) (map f roots) s e.
Proof.
  unfold pverify_left. pose proof (hom_state proof roots s e) as E. destruct (pverify_state nd proof roots s e) as [a r].
  rewrite <- E. reflexivity.
Qed.
End Hom.

Section Pairs.
Variable H : bytes -> bytes.
Notation node := (Rhp.node H).
Definition NodeCollision : Prop := exists a b c d : hash, (a, b) <> (c, d) /\ node a b = node c d.

(* two runs at once: pairs of hashes, with the proposition "all inputs merged so far agree" *)
Definition PX : Type := (hash * hash) * Prop.
Definition nd2 (x y : PX) : PX := ((node (fst (fst x)) (fst (fst y)), node (snd (fst x)) (snd (fst y))), snd x /\ snd y).
Definition inj (a b : hash) : PX := ((a, b), a = b).
Definition f1 (x : PX) : hash := fst (fst x).
Definition f2 (x : PX) : hash := snd (fst x).
Lemma f1_hom a b : f1 (nd2 a b) = node (f1 a) (f1 b). Proof. reflexivity. Qed.
Lemma f2_hom a b : f2 (nd2 a b) = node (f2 a) (f2 b). Proof. reflexivity. Qed.

(* if the two components agree, all merged inputs agree -- or a collision is in hand *)
Definition Good (x : PX) : Prop := f1 x = f2 x -> snd x \/ NodeCollision.
Lemma good_inj a b : Good (inj a b). Proof. intros E. left. exact E. Qed.
Lemma good_nd x y : Good x -> Good y -> Good (nd2 x y).
Proof.
  intros Gx Gy E. unfold f1, f2, nd2 in E. cbn [fst snd] in E.
  destruct (list_eq_dec N.eq_dec (f1 x) (f2 x)) as [Ex|Nx]; [destruct (list_eq_dec N.eq_dec (f1 y) (f2 y)) as [Ey|Ny]|].
  - destruct (Gx Ex) as [Px|C]; [|right; exact C]. destruct (Gy Ey) as [Py|C]; [|right; exact C]. left. split; assumption.
  - right. exists (f1 x), (f1 y), (f2 x), (f2 y). split; [unfold f1, f2 in *; congruence | exact E].
  - right. exists (f1 x), (f1 y), (f2 x), (f2 y). split; [unfold f1, f2 in *; congruence | exact E].
Qed.

Fixpoint allp (ds : list (option PX)) : Prop := match ds with [] => True | None :: r => allp r | Some x :: r => snd x /\ allp r end.
Fixpoint lall (l : list PX) : Prop := match l with [] => True | x :: r => snd x /\ lall r end.
Definition gooda (ds : list (option PX)) : Prop := Forall (fun d => match d with Some x => Good x | None => True end) ds.

Lemma carry_inv h ds : Good h -> gooda ds -> gooda (pcarry nd2 h ds) /\ (allp (pcarry nd2 h ds) <-> snd h /\ allp ds).
Proof.
  revert h. induction ds as [|[t|] ds IH]; intros h Gh Ga; cbn [pcarry allp].
  - split; [apply Forall_cons; [exact Gh | apply Forall_nil] | tauto].
  - inversion Ga as [|? ? Gt Gr]; subst. destruct (IH (nd2 t h) (good_nd _ _ Gt Gh) Gr) as [A B]. split; [apply Forall_cons; [exact I | exact A]|].
    rewrite B. unfold nd2. cbn [snd]. clear. tauto.
  - inversion Ga as [|? ? _ Gr]; subst. split; [apply Forall_cons; [exact Gh | exact Gr] | tauto].
Qed.
Lemma ins_inv h k : forall ds, Good h -> gooda ds -> gooda (pins nd2 h k ds) /\ (allp (pins nd2 h k ds) <-> snd h /\ allp ds).
Proof.
  induction k as [|k IH]; intros ds Gh Ga; cbn [pins]; [apply carry_inv; assumption|].
  destruct ds as [|d ds].
  - destruct (IH [] Gh (Forall_nil _)) as [A B]. split; [apply Forall_cons; [exact I | exact A]|]. cbn [allp]. rewrite B. cbn [allp]. tauto.
  - inversion Ga as [|? ? Gd Gr]; subst. destruct (IH ds Gh Gr) as [A B]. split; [apply Forall_cons; assumption|].
    destruct d as [x|]; cbn [allp]; rewrite B; clear; tauto.
Qed.
Lemma root_inv ds : forall acc, gooda ds -> (match acc with Some a => Good a | None => True end) ->
  match proot_aux nd2 acc ds with
  | Some v => Good v /\ (snd v <-> (match acc with Some a => snd a | None => True end) /\ allp ds)
  | None => acc = None /\ (allp ds <-> True)
  end.
Proof.
  induction ds as [|[t|] ds IH]; intros acc Ga Gacc; cbn [proot_aux allp].
  - destruct acc as [a|]; [split; [exact Gacc | tauto] | split; [reflexivity | tauto]].
  - inversion Ga as [|? ? Gt Gr]; subst.
    specialize (IH (Some (match acc with None => t | Some r => nd2 t r end)) Gr ltac:(destruct acc; [apply good_nd; assumption | exact Gt])).
    destruct (proot_aux nd2 (Some (match acc with None => t | Some r => nd2 t r end)) ds) as [v|]; [|destruct IH as [X _]; discriminate].
    destruct IH as [Gv B]. split; [exact Gv|]. rewrite B. destruct acc as [a|]; unfold nd2; cbn [snd]; clear; tauto.
  - inversion Ga as [|? ? _ Gr]; subst. apply IH; assumption.
Qed.
Lemma range_inv fuel : forall acc proof i j, gooda acc -> Forall Good proof ->
  let '(a, r) := pins_range nd2 fuel acc proof i j in gooda a /\ Forall Good r /\ (allp a /\ lall r <-> allp acc /\ lall proof) /\ (allp a -> allp acc).
Proof.
  induction fuel as [|fu IH]; intros acc proof i j Ga Gp; cbn [pins_range]; [split; [exact Ga | split; [exact Gp | tauto]]|].
  destruct proof as [|p rest]; [split; [exact Ga | split; [exact Gp | tauto]]|].
  destruct (i <? j); [|split; [exact Ga | split; [exact Gp | tauto]]]. cbv zeta.
  inversion Gp as [|? ? Gp0 Gr]; subst. destruct (ins_inv p (N.to_nat (tz64 (next_subtree_size i j))) acc Gp0 Ga) as [A B].
  specialize (IH (pins nd2 p (N.to_nat (tz64 (next_subtree_size i j))) acc) rest (i + next_subtree_size i j) j A Gr).
  destruct (pins_range nd2 fu (pins nd2 p (N.to_nat (tz64 (next_subtree_size i j))) acc) rest (i + next_subtree_size i j) j) as [a r].
  destruct IH as (G1 & G2 & E & M). split; [exact G1|]. split; [exact G2|]. split; [rewrite E, B; cbn [lall]; clear; tauto|].
  intros Pa. apply M in Pa. apply B in Pa. clear - Pa. tauto.
Qed.

(* the whole verifier on pairs: if it yields a value, that value is Good and its proposition says that every pair of
   covered roots agrees, and every pair of proof hashes too when none is left unconsumed *)
Lemma verify_inv proof roots s e : Forall Good proof -> Forall Good roots ->
  match pverify_root nd2 proof roots s e with
  | Some v => Good v /\ (snd v -> lall roots /\ (pverify_left nd2 proof roots s e = [] -> lall proof))
  | None => True
  end.
Proof.
  intros Gp Gr. unfold pverify_root, pverify_left, pverify_state.
  pose proof (range_inv FUEL [] proof 0 s (Forall_nil _) Gp) as R1. destruct (pins_range nd2 FUEL [] proof 0 s) as [a1 r1]. destruct R1 as (G1 & G1r & E1 & _).
  assert (F : forall rs a, gooda a -> Forall Good rs -> gooda (fold_left (fun a h => pins nd2 h 0 a) rs a) /\
                            (allp (fold_left (fun a h => pins nd2 h 0 a) rs a) <-> allp a /\ lall rs)).
  { induction rs as [|x rs IHr]; intros a Ga Gx; cbn [fold_left lall]; [split; [exact Ga | tauto]|].
    inversion Gx as [|? ? Gx0 Gxr]; subst. destruct (ins_inv x 0%nat a Gx0 Ga) as [A B]. destruct (IHr _ A Gxr) as [A2 B2]. split; [exact A2|]. rewrite B2, B. clear. tauto. }
  destruct (F roots a1 G1 Gr) as [G2 E2].
  pose proof (range_inv FUEL (fold_left (fun a h => pins nd2 h 0 a) roots a1) r1 e (Rhp.W - 1) G2 G1r) as R3.
  destruct (pins_range nd2 FUEL (fold_left (fun a h => pins nd2 h 0 a) roots a1) r1 e (Rhp.W - 1)) as [a3 r3]. destruct R3 as (G3 & _ & E3 & M3).
  cbn [fst snd]. pose proof (root_inv a3 None G3 I) as R4. destruct (proot_aux nd2 None a3) as [v|]; [|exact I].
  destruct R4 as [Gv B]. split; [exact Gv|]. intros Pv. apply B in Pv. destruct Pv as [_ Pa]. split.
  - apply M3 in Pa. apply E2 in Pa. clear - Pa. tauto.
  - intros ->. cbn [lall] in E3. cbn [allp] in E1. clear - Pa E1 E2 E3. tauto.
Qed.

(* a submitted and an honest input, run through the verifier at once *)
Definition zipP (a b : list hash) : list PX := map (fun ab => inj (fst ab) (snd ab)) (combine a b).
Lemma zip_f1 (a b : list hash) : length a = length b -> map f1 (zipP a b) = a.
Proof. revert b. induction a as [|x a IH]; intros [|y b] E; try discriminate E; [reflexivity|]. cbn. f_equal. apply IH. injection E as E. exact E. Qed.
Lemma zip_f2 (a b : list hash) : length a = length b -> map f2 (zipP a b) = b.
Proof. revert b. induction a as [|x a IH]; intros [|y b] E; try discriminate E; [reflexivity|]. cbn. f_equal. apply IH. injection E as E. exact E. Qed.
Lemma zip_lall (a b : list hash) : length a = length b -> lall (zipP a b) -> a = b.
Proof. revert b. induction a as [|x a IH]; intros [|y b] E L; try discriminate E; [reflexivity|]. destruct L as [Exy L]. cbn in Exy. rewrite Exy. f_equal. apply IH; [injection E as E; exact E | exact L]. Qed.
Lemma zip_good (a b : list hash) : Forall Good (zipP a b).
Proof. unfold zipP. induction (combine a b) as [|x l IH]; constructor; [apply good_inj | exact IH]. Qed.

(* digits over pairs whose two projections have the same root: all merged pairs agree, or a collision is in hand *)
Lemma root_pair D : gooda D -> pa_root H (map (option_map f1) D) = pa_root H (map (option_map f2) D) -> allp D \/ NodeCollision.
Proof.
  intros G E. unfold pa_root in E. rewrite !rootaux_p in E.
  pose proof (hom_root _ _ nd2 node f1 f1_hom D None) as R1. pose proof (hom_root _ _ nd2 node f2 f2_hom D None) as R2.
  cbn [option_map] in R1, R2. rewrite <- R1, <- R2 in E.
  pose proof (root_inv D None G I) as RI. destruct (proot_aux nd2 None D) as [v|]; cbn [option_map] in E.
  - destruct RI as [Gv B]. destruct (Gv E) as [Sv|C]; [left; exact (proj2 (proj1 B Sv)) | right; exact C].
  - left. apply RI. exact I.
Qed.
End Pairs.
