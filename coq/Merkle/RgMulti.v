(* Multi-range proofs (the closure verifyMulti of rhp/v2 VerifyDiffProof, run once against the old root and once against the
   new; rhp/v4 VerifyFreeSectorsProof is a call of VerifyDiffProof): completeness and soundness against the plainly defined
   root, for every list of fewer than 2^64 roots and every increasing index list; then the old-root verification of
   VerifyDiffProof, and that the new root it accepts is determined by the actions, the old list and the appended roots.
   The verifier marks a proof short when a range needs a tree hash and none is left (fix 7283819); without that mark the
   soundness statement is false (refuted below on the unmarked loop). *)
From Coq Require Import List NArith Arith Bool Lia Sorted.
From Sia Require Import Prim.Tok Merkle.Tree Merkle.Forest Merkle.Rhp Merkle.RhpProofs Merkle.RhpRoot.
From Sia Require Import Merkle.RgSound Merkle.RgLoops Merkle.RgGap Merkle.RgDiff1.
Import ListNotations.
Local Open Scope N_scope.

Fixpoint incr (start : N) (idx : list N) (n : N) : Prop :=
  match idx with [] => start <= n | e :: r => start <= e /\ e < n /\ incr (e + 1) r n end.
Definition leaves_at (ls : list hash) (idx : list N) : list hash := map (fun j => nth (N.to_nat j) ls zero_hash) idx.

Lemma leaves_at_length L I : length (leaves_at L I) = length I.
Proof. unfold leaves_at. apply map_length. Qed.
Lemma leaves_at_ext L L' I : (forall j, In j I -> nth (N.to_nat j) L zero_hash = nth (N.to_nat j) L' zero_hash) -> leaves_at L I = leaves_at L' I.
Proof. intros E. unfold leaves_at. apply map_ext_in. exact E. Qed.
Lemma leaves_at_app L I J : leaves_at L (I ++ J) = leaves_at L I ++ leaves_at L J.
Proof. unfold leaves_at. apply map_app. Qed.
Lemma leaves_at_nth L I p : (p < length I)%nat -> nth p (leaves_at L I) zero_hash = nth (N.to_nat (nth p I 0)) L zero_hash.
Proof. intros Lp. unfold leaves_at. rewrite (nth_indep _ zero_hash (nth (N.to_nat 0) L zero_hash)) by (rewrite map_length; exact Lp). rewrite (map_nth (fun j => nth (N.to_nat j) L zero_hash)). reflexivity. Qed.

Lemma sorted_incr n l : forall start, StronglySorted N.lt l -> Forall (fun x => start <= x /\ x < n) l -> start <= n -> incr start l n.
Proof.
  induction l as [|e r IH]; intros start S F Hs; cbn [incr]; [exact Hs|].
  inversion S as [|? ? S' Fe]; subst. inversion F as [|? ? [F1 F2] Fr]; subst. split; [exact F1|]. split; [exact F2|].
  apply IH; [exact S' | | lia]. rewrite Forall_forall in *. intros y Hy. specialize (Fe y Hy). specialize (Fr y Hy). lia.
Qed.

Lemma incr_ge n idx : forall start x, incr start idx n -> In x idx -> start <= x.
Proof.
  induction idx as [|e r IH]; intros start x I Hin; [destruct Hin|]. destruct I as (I1 & _ & I3).
  destruct Hin as [<-|Hin]; [exact I1|]. specialize (IH _ _ I3 Hin). lia.
Qed.
Lemma below_incr C lim : SS C -> incr 0 (below lim C) lim.
Proof.
  intros HC. apply sorted_incr; [apply below_sorted; exact HC | | lia].
  rewrite Forall_forall. intros x Hx. apply below_In in Hx. lia.
Qed.

(* multi_ns (below) over any carrier *)
Section Poly.
Variable X : Type.
Variable nd : X -> X -> X.
Fixpoint pmulti (fuel : nat) (acc : list (option X)) (th : list X) (start : N) (idx : list N) (lh : list X) (n : N)
  : option (list (option X) * list X) :=
  match idx with
  | [] => Some (pins_range nd fuel acc th start n)
  | e :: r =>
    match lh with
    | [] => None
    | l :: lrest => let '(acc, th) := pins_range nd fuel acc th start e in pmulti fuel (pins nd l 0 acc) th (e + 1) r lrest n
    end
  end.
End Poly.
Arguments pmulti {X}.

Section Hom.
Variables X Y : Type.
Variable nd : X -> X -> X.
Variable nd' : Y -> Y -> Y.
Variable f : X -> Y.
Hypothesis Hf : forall a b, f (nd a b) = nd' (f a) (f b).
Notation mf := (map (option_map f)).
Lemma hom_multi fuel idx : forall acc th start lh n,
  option_map (fun ar => (mf (fst ar), map f (snd ar))) (pmulti nd fuel acc th start idx lh n) = pmulti nd' fuel (mf acc) (map f th) start idx (map f lh) n.
Proof.
  induction idx as [|e r IH]; intros acc th start lh n; cbn [pmulti].
  - cbn [option_map]. f_equal. pose proof (hom_range X Y nd nd' f Hf fuel acc th start n) as E.
    destruct (pins_range nd fuel acc th start n) as [a q]. cbn [fst snd]. exact E.
  - destruct lh as [|l lrest]; cbn [map]; [reflexivity|].
    pose proof (hom_range X Y nd nd' f Hf fuel acc th start e) as E. destruct (pins_range nd fuel acc th start e) as [a q].
    rewrite <- E. rewrite <- (hom_ins X Y nd nd' f Hf). apply IH.
Qed.
End Hom.

Section Multi.
Variable H : bytes -> bytes.
Notation node := (Rhp.node H).
Notation mroot := (Rhp.mroot H).
Notation range_subtrees := (Rhp.range_subtrees H).
Notation insert_range := (Rhp.insert_range H).
Notation build_gaps := (Rhp.build_gaps H).

(* the unmarked loop (what the verifier ran before the fix, and what the pair argument is about) *)
Fixpoint multi_ns (fuel : nat) (acc : pacc) (th : list hash) (start : N) (idx : list N) (lh : list hash) (n : N) : option (pacc * list hash) :=
  match idx with
  | [] => Some (insert_range fuel acc th start n)
  | e :: r =>
    match lh with
    | [] => None
    | l :: lrest => let '(acc, th) := insert_range fuel acc th start e in multi_ns fuel (insert_node H l 0 acc) th (e + 1) r lrest n
    end
  end.
Lemma multi_p fuel idx acc th start lh n : multi_ns fuel acc th start idx lh n = pmulti node fuel acc th start idx lh n.
Proof. reflexivity. Qed.

Lemma strict_false f : forall acc p i j a t, insert_range_s H f acc p i j = (a, t, false) ->
  insert_range f acc p i j = (a, t) /\ N.of_nat (length p) = gaps_size f i j + N.of_nat (length t).
Proof.
  induction f as [|f IH]; intros acc p i j a t E; cbn [insert_range_s Rhp.insert_range gaps_size] in *.
  - destruct (i <? j); [discriminate|]. injection E as <- <-. split; [reflexivity | lia].
  - destruct (i <? j).
    + destruct p as [|x rest]; [discriminate|]. cbv zeta in *. destruct (IH _ _ _ _ _ _ E) as [E1 E2]. split; [exact E1|]. cbn [length]. lia.
    + injection E as <- <-. split; [destruct p; reflexivity | lia].
Qed.
Lemma multi_s_false f n idx : forall acc th start lh a t, verify_multi_aux H f acc th start idx lh n = Some (a, t, false) ->
  multi_ns f acc th start idx lh n = Some (a, t) /\ N.of_nat (length th) = diff_gaps f start idx n + N.of_nat (length t).
Proof.
  induction idx as [|e r IH]; intros acc th start lh a t E; cbn [verify_multi_aux multi_ns diff_gaps] in *.
  - injection E as E. destruct (strict_false f _ _ _ _ _ _ E) as [E1 E2]. rewrite E1. split; [reflexivity | exact E2].
  - destruct lh as [|l lrest]; [discriminate|]. destruct (insert_range_s H f acc th start e) as [[a1 t1] s1] eqn:E1.
    destruct (verify_multi_aux H f (insert_node H l 0 a1) t1 (e + 1) r lrest n) as [[[a2 t2] s2]|] eqn:E2; [|discriminate].
    injection E as <- <- Es. destruct s1; [discriminate|]. destruct s2; [discriminate|].
    destruct (strict_false f _ _ _ _ _ _ E1) as [F1 F2]. rewrite F1. destruct (IH _ _ _ _ _ _ E2) as [G1 G2]. split; [exact G1 | lia].
Qed.

Lemma strict_app (ls : list hash) j rest : j < 2 ^ 64 -> forall f i acc, (i < j -> (N.to_nat (phi i j) <= f)%nat) ->
  insert_range_s H f acc (range_subtrees f ls i j ++ rest) i j =
  (fst (insert_range f acc (range_subtrees f ls i j ++ rest) i j), snd (insert_range f acc (range_subtrees f ls i j ++ rest) i j), false).
Proof.
  intros Hj. induction f as [|f IH]; intros i acc En; cbn [insert_range_s Rhp.insert_range Rhp.range_subtrees].
  - destruct (N.ltb_spec i j) as [L|G]; [pose proof (phi_pos i j L Hj); specialize (En L); lia | reflexivity].
  - destruct (N.ltb_spec i j) as [L|G].
    + cbv zeta. cbn [app]. apply IH. intros L2. pose proof (phi_step i j L Hj L2). specialize (En L). lia.
    + cbn [app]. destruct rest; reflexivity.
Qed.

Lemma firstn_succ_nth (ls : list hash) e : (e < length ls)%nat -> firstn (S e) ls = firstn e ls ++ [nth e ls zero_hash].
Proof.
  revert e. induction ls as [|x ls IH]; intros e L; [cbn in L; lia|]. destruct e as [|e]; [reflexivity|].
  cbn [firstn nth app]. f_equal. apply IH. cbn in L. lia.
Qed.

Lemma gap_sync_s (ls : list hash) i j acc rest : i <= j -> j <= N.of_nat (length ls) -> N.of_nat (length ls) < 2 ^ 64 ->
  Repr hash node (firstn (N.to_nat i) ls) acc ->
  exists acc', insert_range_s H FUEL acc (range_subtrees FUEL ls i j ++ rest) i j = (acc', rest, false) /\ Repr hash node (firstn (N.to_nat j) ls) acc'.
Proof.
  intros Hij Hjn Hn R. destruct (gap_sync H ls i j acc rest Hij Hjn Hn R) as (acc' & E & R'). exists acc'. split; [|exact R'].
  rewrite (strict_app ls j rest ltac:(lia) FUEL i acc); [rewrite E; reflexivity|].
  intros _. pose proof (phi_bound i j ltac:(lia)). unfold FUEL. lia.
Qed.

Lemma multi_sync (ls : list hash) : N.of_nat (length ls) < 2 ^ 64 -> forall idx start acc rest,
  incr start idx (N.of_nat (length ls)) -> Repr hash node (firstn (N.to_nat start) ls) acc ->
  exists acc', verify_multi_aux H FUEL acc (build_gaps FUEL ls start idx ++ rest) start idx (leaves_at ls idx) (N.of_nat (length ls)) = Some (acc', rest, false)
               /\ Repr hash node ls acc'.
Proof.
  intros Hn. induction idx as [|e r IH]; intros start acc rest I R; cbn [Rhp.build_gaps verify_multi_aux leaves_at map incr] in *.
  - destruct (gap_sync_s ls start (N.of_nat (length ls)) acc rest I ltac:(lia) Hn R) as (acc' & E & R').
    exists acc'. rewrite E. split; [reflexivity|]. rewrite firstn_all2 in R' by lia. exact R'.
  - destruct I as (I1 & I2 & I3). rewrite <- app_assoc.
    destruct (gap_sync_s ls start e acc (build_gaps FUEL ls (e + 1) r ++ rest) I1 ltac:(lia) Hn R) as (acc1 & E & R1). rewrite E.
    destruct (IH (e + 1) (insert_node H (nth (N.to_nat e) ls zero_hash) 0 acc1) rest I3) as (acc' & E' & R').
    { replace (N.to_nat (e + 1)) with (S (N.to_nat e)) by lia. rewrite firstn_succ_nth by lia.
      apply (acc_digits_repr H _ acc1 [nth (N.to_nat e) ls zero_hash]). exact R1. }
    exists acc'. fold (leaves_at ls r). rewrite E'. split; [reflexivity | exact R'].
Qed.

Theorem multi_complete (ls : list hash) idx : N.of_nat (length ls) < 2 ^ 64 -> incr 0 idx (N.of_nat (length ls)) ->
  verify_multi H idx (build_gaps FUEL ls 0 idx) (leaves_at ls idx) (N.of_nat (length ls)) (mroot ls) = Some true.
Proof.
  intros Hn I. unfold verify_multi. destruct (multi_sync ls Hn idx 0 [] [] I ltac:(cbn; apply repr_nil)) as (acc' & E & R).
  rewrite app_nil_r in E. rewrite E. rewrite (repr_root H ls acc' R), hash_eqb_refl. reflexivity.
Qed.

Lemma multi_inv fuel n idx : forall acc th start lh, length lh = length idx -> gooda H acc -> Forall (Good H) th -> Forall (Good H) lh ->
  match pmulti (nd2 H) fuel acc th start idx lh n with
  | Some (a, r) => gooda H a /\ (allp a /\ lall r <-> allp acc /\ lall th /\ lall lh)
  | None => False
  end.
Proof.
  induction idx as [|e r IH]; intros acc th start lh L Ga Gt Gl; cbn [pmulti].
  - destruct lh; [|discriminate]. pose proof (range_inv H fuel acc th start n Ga Gt) as RI.
    destruct (pins_range (nd2 H) fuel acc th start n) as [a q]. destruct RI as (G1 & _ & E & _). split; [exact G1|]. cbn [lall]. tauto.
  - destruct lh as [|l lrest]; [discriminate|]. cbn [length] in L. inversion Gl as [|? ? Gl0 Glr]; subst.
    pose proof (range_inv H fuel acc th start e Ga Gt) as RI. destruct (pins_range (nd2 H) fuel acc th start e) as [a q].
    destruct RI as (G1 & G2 & E & _). destruct (ins_inv H l 0%nat a Gl0 G1) as [G3 E3].
    specialize (IH (pins (nd2 H) l 0 a) q (e + 1) lrest ltac:(lia) G3 G2 Glr).
    destruct (pmulti (nd2 H) fuel (pins (nd2 H) l 0 a) q (e + 1) r lrest n) as [[a' r']|]; [|exact IH].
    destruct IH as [G4 E4]. split; [exact G4|]. rewrite E4, E3. cbn [lall]. clear - E. tauto.
Qed.

Lemma build_gaps_length (ls : list hash) f idx : forall start,
  N.of_nat (length (build_gaps f ls start idx)) = diff_gaps f start idx (N.of_nat (length ls)).
Proof.
  induction idx as [|e r IH]; intros start; cbn [Rhp.build_gaps diff_gaps]; [apply gaps_length|].
  rewrite app_length, Nat2N.inj_add, gaps_length, IH. reflexivity.
Qed.

(* the pair argument of RgSound on the unmarked loop; that there are exactly as many tree hashes as the gaps need is what
   the short mark provides (multi_s_false) *)
Lemma multi_ns_sound (ls : list hash) idx th lh acc1 : N.of_nat (length ls) < 2 ^ 64 -> incr 0 idx (N.of_nat (length ls)) ->
  length lh = length idx -> N.of_nat (length th) = diff_gaps FUEL 0 idx (N.of_nat (length ls)) ->
  multi_ns FUEL [] th 0 idx lh (N.of_nat (length ls)) = Some (acc1, []) -> pa_root H acc1 = mroot ls ->
  (lh = leaves_at ls idx /\ th = build_gaps FUEL ls 0 idx) \/ NodeCollision H.
Proof.
  intros Hn Inc Ll Lt E1 V1. set (th0 := build_gaps FUEL ls 0 idx). set (lh0 := leaves_at ls idx).
  assert (Lt0 : length th = length th0) by (apply Nat2N.inj; rewrite Lt; symmetry; apply build_gaps_length).
  assert (Ll0 : length lh = length lh0) by (unfold lh0; rewrite leaves_at_length; exact Ll).
  destruct (multi_sync ls Hn idx 0 [] [] Inc (repr_nil hash node)) as (acc0 & E0 & R0). rewrite app_nil_r in E0. fold th0 lh0 in E0.
  apply multi_s_false in E0. destruct E0 as [E0 _]. rewrite <- (repr_root H ls acc0 R0) in V1.
  (* both runs are the projections of one run over pairs *)
  rewrite multi_p, <- (zip_f1 th th0 Lt0), <- (zip_f1 lh lh0 Ll0) in E1. rewrite multi_p, <- (zip_f2 th th0 Lt0), <- (zip_f2 lh lh0 Ll0) in E0.
  rewrite <- (hom_multi _ _ (nd2 H) node f1 (f1_hom H) FUEL idx []) in E1. rewrite <- (hom_multi _ _ (nd2 H) node f2 (f2_hom H) FUEL idx []) in E0.
  pose proof (multi_inv FUEL (N.of_nat (length ls)) idx [] (zipP th th0) 0 (zipP lh lh0)
                ltac:(unfold zipP; rewrite map_length, combine_length; lia) (Forall_nil _) (zip_good H _ _) (zip_good H _ _)) as Inv.
  destruct (pmulti (nd2 H) FUEL [] (zipP th th0) 0 idx (zipP lh lh0) (N.of_nat (length ls))) as [[A Rm]|]; [|contradiction].
  cbn [option_map fst snd] in E1, E0. injection E1 as A1 Rm1. injection E0 as A2 _. apply map_eq_nil in Rm1. subst Rm. destruct Inv as [GA EA].
  destruct (root_pair H A GA ltac:(rewrite A1, A2; exact V1)) as [AA|C]; [left | right; exact C].
  cbn [allp lall] in EA. clear - EA AA Lt0 Ll0. split; apply zip_lall; tauto.
Qed.

Lemma verify_multi_true idx th lh n root : verify_multi H idx th lh n root = Some true ->
  exists acc, verify_multi_aux H FUEL [] th 0 idx lh n = Some (acc, [], false) /\ pa_root H acc = root.
Proof.
  unfold verify_multi. destruct (verify_multi_aux H FUEL [] th 0 idx lh n) as [[[acc left] short]|]; [|discriminate].
  intros V. injection V as V. apply andb_prop in V. destruct V as [V V2]. apply andb_prop in V. destruct V as [V0 V1].
  destruct short; [discriminate|]. destruct left; [|discriminate]. exists acc. split; [reflexivity | apply hash_eqb_true, V1].
Qed.

Theorem multi_sound (ls : list hash) idx th lh : N.of_nat (length ls) < 2 ^ 64 -> incr 0 idx (N.of_nat (length ls)) ->
  length lh = length idx ->
  verify_multi H idx th lh (N.of_nat (length ls)) (mroot ls) = Some true ->
  (lh = leaves_at ls idx /\ th = build_gaps FUEL ls 0 idx) \/ NodeCollision H.
Proof.
  intros Hn Inc Ll V. destruct (verify_multi_true _ _ _ _ _ V) as (acc1 & E1 & V1).
  apply multi_s_false in E1. destruct E1 as [E1 Len]. cbn [length] in Len.
  apply (multi_ns_sound ls idx th lh acc1 Hn Inc Ll ltac:(lia) E1 V1).
Qed.

Lemma sectors_changed_incr acts n : incr 0 (sectors_changed acts n) n.
Proof using H.
  apply (below_incr (changed_aux acts n []) n), changed_sorted. constructor.
Qed.

Lemma verify_diff_true acts n th lh oldRoot newRoot ar : verify_diff_proof H acts n th lh oldRoot newRoot ar = Some true ->
  length (sectors_changed acts n) = length lh /\ verify_multi H (sectors_changed acts n) th lh n oldRoot = Some true /\
  exists nlh nidx, modify_leaves lh acts n ar = Some nlh /\ modify_ranges (sectors_changed acts n) acts n = Some nidx /\
    verify_multi H nidx th nlh (n + N.of_nat (length nlh) - N.of_nat (length lh)) newRoot = Some true.
Proof.
  unfold verify_diff_proof. intros V. destruct (Nat.eqb_spec (length (sectors_changed acts n)) (length lh)) as [Ll|]; [|discriminate]. cbn [negb] in V.
  destruct (verify_multi H (sectors_changed acts n) th lh n oldRoot) as [[|]|]; try discriminate.
  destruct (modify_leaves lh acts n ar) as [nlh|]; [|discriminate]. destruct (modify_ranges (sectors_changed acts n) acts n) as [nidx|]; [|discriminate].
  split; [exact Ll|]. split; [reflexivity|]. exists nlh, nidx. split; [reflexivity|]. split; [reflexivity | exact V].
Qed.

Theorem diff_old_complete (acts : list action) (ls : list hash) : N.of_nat (length ls) < 2 ^ 64 ->
  verify_multi H (sectors_changed acts (N.of_nat (length ls))) (fst (build_diff_proof H acts ls)) (snd (build_diff_proof H acts ls))
    (N.of_nat (length ls)) (mroot ls) = Some true.
Proof. intros Hn. unfold build_diff_proof. cbn [fst snd]. apply (multi_complete ls _ Hn). apply sectors_changed_incr. Qed.

Theorem diff_old_sound (acts : list action) (ls th lh : list hash) (newRoot : hash) (appendRoots : list hash) :
  N.of_nat (length ls) < 2 ^ 64 ->
  verify_diff_proof H acts (N.of_nat (length ls)) th lh (mroot ls) newRoot appendRoots = Some true ->
  (lh = snd (build_diff_proof H acts ls) /\ th = fst (build_diff_proof H acts ls)) \/ NodeCollision H.
Proof.
  intros Hn V. destruct (verify_diff_true _ _ _ _ _ _ _ V) as (Ll & V1 & _).
  apply (multi_sound ls _ th lh Hn (sectors_changed_incr acts _) (eq_sym Ll) V1).
Qed.
End Multi.

(* without the short mark the statement is false: four leaves, index 3; one tree hash instead of two and the interior node
   over leaves 2 and 3 in place of leaf 3 reach the same root (hash taken as the identity, so no collision is involved) *)
Example unmarked_loop_refuted : let Hid := fun b : bytes => b in
  let ls := [[1]; [2]; [3]; [4]] in
  exists th lh acc, multi_ns Hid FUEL [] th 0 [3] lh 4 = Some (acc, []) /\ Rhp.pa_root Hid acc = Rhp.mroot Hid ls /\ lh <> leaves_at ls [3] /\ length lh = 1%nat.
Proof.
  cbv zeta. exists [Rhp.node (fun b => b) [1] [2]], [Rhp.node (fun b => b) [3] [4]]. eexists.
  split; [vm_compute; reflexivity|]. split; [vm_compute; reflexivity|]. split; [vm_compute; discriminate | reflexivity].
Qed.

Section NewRoot.
Variable H : bytes -> bytes.
(* the root the second verification of VerifyDiffProof computes from the builder's own proof: a function of the actions,
   the old list and the appended roots alone *)
Definition diff_new_acc (acts : list action) (ls ar : list hash) : option (pacc * list hash * bool) :=
  let n := N.of_nat (length ls) in
  let idx := sectors_changed acts n in
  let lh := leaves_at ls idx in
  match modify_leaves lh acts n ar, modify_ranges idx acts n with
  | Some nlh, Some nidx => verify_multi_aux H FUEL [] (build_gaps H FUEL ls 0 idx) 0 nidx nlh (n + N.of_nat (length nlh) - N.of_nat (length lh))
  | _, _ => None
  end.
Definition diff_new_root (acts : list action) (ls ar : list hash) : option hash :=
  match diff_new_acc acts ls ar with Some (acc, _, _) => Some (pa_root H acc) | None => None end.

(* an accepted proof is the builder's (diff_old_sound), so the accepted new root is the one the verifier derives from the
   builder's proof. That this root is the plain root of the list after the actions is RgDiff3.diff_sound. *)
Theorem diff_new_determined (acts : list action) (ls th lh : list hash) (newRoot : hash) (ar : list hash) :
  N.of_nat (length ls) < 2 ^ 64 ->
  verify_diff_proof H acts (N.of_nat (length ls)) th lh (Rhp.mroot H ls) newRoot ar = Some true ->
  diff_new_root acts ls ar = Some newRoot \/ NodeCollision H.
Proof.
  intros Hn V. destruct (diff_old_sound H acts ls th lh newRoot ar Hn V) as [[El Et]|C]; [left | right; exact C].
  unfold build_diff_proof in El, Et. cbn [fst snd] in El, Et. fold (leaves_at ls (sectors_changed acts (N.of_nat (length ls)))) in El.
  destruct (verify_diff_true H _ _ _ _ _ _ _ V) as (_ & _ & nlh & nidx & M1 & M2 & V2). destruct (verify_multi_true H _ _ _ _ _ V2) as (acc & E & R).
  unfold diff_new_root, diff_new_acc. cbv zeta. rewrite <- El, <- Et, M1, M2, E, R. reflexivity.
Qed.
End NewRoot.
