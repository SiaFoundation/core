(* One tree of a multiproof: expanding the computed multiproof restores every individual proof exactly and consumes
   exactly multiproofSize hashes (C18). *)
From Coq Require Import List NArith Lia Bool Sorted.

From Sia Require Import Merkle.Pow2 Merkle.Tree Merkle.Multi.
Import ListNotations.
Open Scope N_scope.

Section MultiProofs.
Variable hash : Type.
Variable node : hash -> hash -> hash.
Notation mleaf := (mleaf hash).
Notation ptree := (ptree hash).
Notation height := (height hash).
Notation perfect := (perfect hash).
Notation root := (root hash node).

Definition sorted (ls : list mleaf) : Prop := StronglySorted (fun a b => ml_idx hash a <= ml_idx hash b) ls.
Definition valid (t : ptree) (base : N) (x : mleaf) : Prop :=
  base <= ml_idx hash x < base + pow2 (height t) /\
  ml_hash hash x = leaf_in hash t base (ml_idx hash x) /\
  firstn (height t) (ml_proof hash x) = proof_in hash node t base (ml_idx hash x).

Lemma split_mid_spec mid ls : sorted ls ->
  let (l, r) := split_mid hash mid ls in
  ls = l ++ r /\ Forall (fun x => ml_idx hash x < mid) l /\ Forall (fun x => mid <= ml_idx hash x) r /\ sorted l /\ sorted r.
Proof.
  induction ls as [|x ls IH]; intros S; cbn [split_mid].
  - repeat split; constructor.
  - apply StronglySorted_inv in S. destruct S as [S Hx].
    destruct (N.ltb_spec (ml_idx hash x) mid) as [E|E].
    + specialize (IH S). destruct (split_mid hash mid ls) as [a b]. destruct IH as (-> & La & Lb & Sa & Sb).
      repeat split; auto. constructor; auto. apply Forall_app in Hx. tauto.
    + repeat split; auto; try constructor; try lia; try constructor; auto.
      eapply Forall_impl; [|exact Hx]. cbn. intros a Ha. lia.
Qed.

Lemma proof_in_length t base i : perfect t -> length (proof_in hash node t base i) = height t.
Proof.
  revert base. induction t as [x|l IHl r IHr]; intros base P; cbn [proof_in Tree.height]; [reflexivity|].
  destruct P as (Pl & Pr & E). destruct (_ <? _); rewrite app_length; cbn [length].
  - rewrite IHl by auto. lia.
  - rewrite IHr by auto. lia.
Qed.

Lemma firstn_snoc_inv {A} n (p q : list A) s : length q = n -> firstn (S n) p = q ++ [s] ->
  firstn n p = q /\ nth_error p n = Some s.
Proof.
  revert p q. induction n as [|n IH]; intros p q L E.
  - destruct q; [|discriminate]. destruct p as [|a p]; cbn in *; [discriminate|]. inversion E. auto.
  - destruct q as [|b q]; [discriminate|]. destruct p as [|a p]; [discriminate|].
    cbn [firstn] in E. cbn [app] in E. inversion E as [[Ea E']]. subst.
    destruct (IH p q) as [F N]; [cbn in L; lia | exact E' |].
    cbn [firstn nth_error]. rewrite F. auto.
Qed.

Lemma pow2_S h : pow2 (S h) = 2 * pow2 h.
Proof. apply N_pow2_S. Qed.
Lemma pow2_nz h : pow2 h <> 0.
Proof. apply N_pow2_nz. Qed.

(* validity in a node is validity in the child the index falls into, plus the sibling's root at this level *)
Definition below (s : ptree) (base : N) (sib : hash) (x : mleaf) : Prop :=
  valid s base x /\ nth_error (ml_proof hash x) (height s) = Some sib /\
  firstn (S (height s)) (ml_proof hash x) = firstn (height s) (ml_proof hash x) ++ [sib].

Lemma valid_left l r base x : perfect (Node hash l r) -> valid (Node hash l r) base x ->
  ml_idx hash x < base + pow2 (height l) -> below l base (root r) x.
Proof.
  intros (Pl & Pr & E) (R & Hh & Hp) Lt. cbn [Tree.height proof_in leaf_in] in *.
  rewrite (proj2 (N.ltb_lt _ _) Lt) in *.
  destruct (firstn_snoc_inv _ _ _ _ (proof_in_length l base _ Pl) Hp) as [F N].
  repeat split; auto; try lia. rewrite Hp, F. reflexivity.
Qed.
Lemma valid_right l r base x : perfect (Node hash l r) -> valid (Node hash l r) base x ->
  base + pow2 (height l) <= ml_idx hash x -> below r (base + pow2 (height l)) (root l) x.
Proof.
  intros (Pl & Pr & E) (R & Hh & Hp) Ge. cbn [Tree.height proof_in leaf_in] in *.
  rewrite (proj2 (N.ltb_ge _ _) Ge) in *.
  rewrite pow2_S in R. unfold below, valid. rewrite <- E.
  assert (L : length (proof_in hash node r (base + pow2 (height l)) (ml_idx hash x)) = height l)
    by (rewrite proof_in_length by auto; lia).
  destruct (firstn_snoc_inv _ _ _ _ L Hp) as [F N].
  repeat split; auto; try lia. rewrite Hp, F. reflexivity.
Qed.

Lemma map_snoc_firstn (g : list mleaf) s base sib : Forall (below s base sib) g ->
  map (fun p => p ++ [sib]) (map (fun x => firstn (height s) (ml_proof hash x)) g) =
  map (fun x => firstn (S (height s)) (ml_proof hash x)) g.
Proof. induction 1 as [|x g (_ & _ & Hx) _ IH]; cbn [map]; [reflexivity|]. rewrite IH, Hx. reflexivity. Qed.

Lemma expand_nil h base p rest : expand hash node h base [] (p :: rest) = Some (p, [], rest).
Proof. destruct h; reflexivity. Qed.
Lemma msize_nil h base : msize hash h base [] = 1%nat.
Proof. destruct h; reflexivity. Qed.
Lemma expand_S h base ls pf : ls <> [] ->
  expand hash node (S h) base ls pf =
  let (l, r) := split_mid hash (base + pow2 h) ls in
  match expand hash node h base l pf with
  | None => None
  | Some (lr, lp, pf1) =>
    match expand hash node h (base + pow2 h) r pf1 with
    | None => None
    | Some (rr, rp, pf2) => Some (node lr rr, map (fun p => p ++ [rr]) lp ++ map (fun p => p ++ [lr]) rp, pf2)
    end
  end.
Proof. destruct ls; [congruence | reflexivity]. Qed.
Lemma msize_S h base ls : ls <> [] ->
  msize hash (S h) base ls = let (l, r) := split_mid hash (base + pow2 h) ls in (msize hash h base l + msize hash h (base + pow2 h) r)%nat.
Proof. destruct ls; [congruence | reflexivity]. Qed.

(* Go: a side without leaves contributes the sibling hash carried at this level by the first leaf of the other side *)
Definition cside (h : nat) (base : N) (own other : list mleaf) : option (list hash) :=
  match own with
  | [] => match other with x :: _ => option_map (fun s => [s]) (nth_error (ml_proof hash x) h) | [] => None end
  | _ => compute hash h base own
  end.
Lemma compute_S h base ls :
  compute hash (S h) base ls =
  let (l, r) := split_mid hash (base + pow2 h) ls in
  match cside h base l r, cside h (base + pow2 h) r l with Some a, Some b => Some (a ++ b) | _, _ => None end.
Proof. reflexivity. Qed.

(* what one visit owes: the multiproof part it emits, its size, and that expanding consumes exactly that part *)
Definition visited (s : ptree) (base : N) (ls : list mleaf) (res : option (list hash)) : Prop :=
  exists mp, res = Some mp /\ length mp = msize hash (height s) base ls /\
    forall rest, expand hash node (height s) base ls (mp ++ rest) =
                 Some (root s, map (fun x => firstn (height s) (ml_proof hash x)) ls, rest).

Lemma cside_visited s base own other :
  (own <> [] -> visited s base own (compute hash (height s) base own)) ->
  (own = [] -> exists x rest, other = x :: rest /\ nth_error (ml_proof hash x) (height s) = Some (root s)) ->
  visited s base own (cside (height s) base own other).
Proof.
  intros IH He. destruct own as [|x own]; [|apply IH; discriminate].
  destruct (He eq_refl) as (y & tl & -> & Hn). exists [root s]. cbn [cside]. rewrite Hn, msize_nil.
  repeat split. intros rest. apply expand_nil.
Qed.

Lemma compute_visited t : perfect t -> forall base ls, ls <> [] -> sorted ls -> Forall (valid t base) ls ->
  visited t base ls (compute hash (height t) base ls).
Proof.
  induction t as [x0|l IHl r IHr]; intros P base ls NE Hs V.
  - exists []. destruct ls as [|x ls]; [congruence|]. repeat split. intros rest. cbn [Tree.height expand app].
    inversion V as [|? ? (_ & Hh & _) _]; subst. rewrite Hh. reflexivity.
  - pose proof P as (Pl & Pr & E). unfold visited. cbn [Tree.height Tree.root]. rewrite compute_S.
    pose proof (split_mid_spec (base + pow2 (height l)) ls Hs) as SP.
    destruct (split_mid hash (base + pow2 (height l)) ls) as [a b] eqn:SM.
    destruct SP as (EQ & La & Lb & Sa & Sb). rewrite EQ in V. apply Forall_app in V. destruct V as [Va Vb].
    assert (VA : Forall (below l base (root r)) a) by (rewrite Forall_forall in *; intros x Hx; apply valid_left; auto).
    assert (VB : Forall (below r (base + pow2 (height l)) (root l)) b) by (rewrite Forall_forall in *; intros x Hx; apply valid_right; auto).
    destruct (cside_visited l base a b) as (mpa & Ca & Sza & Xa).
    { intros Na. apply IHl; [exact Pl | exact Na | exact Sa |]. eapply Forall_impl; [|exact VA]. intros x Hx. apply Hx. }
    { intros ->. destruct b as [|y b]; [cbn in EQ; congruence|]. inversion VB as [|? ? (_ & Hn & _) _]; subst. rewrite E. eauto. }
    destruct (cside_visited r (base + pow2 (height l)) b a) as (mpb & Cb & Szb & Xb).
    { intros Nb. apply IHr; [exact Pr | exact Nb | exact Sb |]. eapply Forall_impl; [|exact VB]. intros x Hx. apply Hx. }
    { intros ->. rewrite app_nil_r in EQ. destruct a as [|y a]; [congruence|]. inversion VA as [|? ? (_ & Hn & _) _]; subst. rewrite <- E. eauto. }
    rewrite <- E in *. exists (mpa ++ mpb). rewrite Ca, Cb. split; [reflexivity|]. split.
    + rewrite app_length, msize_S, SM by exact NE. lia.
    + intros rest. rewrite expand_S, SM, <- app_assoc, Xa, Xb by exact NE.
      rewrite (map_snoc_firstn a _ _ _ VA). rewrite E, (map_snoc_firstn b _ _ _ VB), <- E, EQ, map_app. reflexivity.
Qed.

Theorem expand_compute t : perfect t -> forall base ls rest, ls <> [] -> sorted ls -> Forall (valid t base) ls ->
  exists mp, compute hash (height t) base ls = Some mp /\ length mp = msize hash (height t) base ls /\
             expand hash node (height t) base ls (mp ++ rest) =
               Some (root t, map (fun x => firstn (height t) (ml_proof hash x)) ls, rest).
Proof.
  intros P base ls rest NE Hs V. destruct (compute_visited t P base ls NE Hs V) as (mp & C & Sz & X).
  exists mp. split; [exact C|]. split; [exact Sz | apply X].
Qed.
End MultiProofs.
