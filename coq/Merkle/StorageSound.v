(* Storage proofs: soundness for every proof length the verifier lets through (at least the merge height).  Any chain of
   hashes from a leaf hash up to the root is the honest proof of some leaf ([chain_sound]); the directions the verifier
   takes for index i are those of no other leaf ([rule_injective]). *)
From Coq Require Import List ZArith NArith Arith Bool Lia.
From Sia Require Import Prim.Result Prim.Tok Merkle.Pow2 Merkle.Rhp Merkle.RhpRoot Ledger.Types Ledger.Mid Ledger.Validate Merkle.StorageProof.
From Sia Require Merkle.Tree.
Import ListNotations.

Local Open Scope Z_scope.
(* at the highest bit where they differ, the smaller of two numbers has a zero *)
Lemma top_bit_zero i m : 0 <= i <= m -> 1 <= StorageProof.blen (Z.lxor i m) -> Z.testbit i (StorageProof.blen (Z.lxor i m) - 1) = false.
Proof.
  intros Him Hb. set (s := StorageProof.blen (Z.lxor i m)) in *.
  destruct (Z.testbit i (s - 1)) eqn:Ti; [exfalso | reflexivity].
  (* otherwise m has the zero there, and they agree above: m < i *)
  pose proof (blen_top (Z.lxor i m) ltac:(apply Z.lxor_nonneg; lia) Hb) as Tm. fold s in Tm. rewrite Z.lxor_spec, Ti in Tm.
  assert (Z.to_N m < Z.to_N i)%N; [|lia].
  assert (B : forall k b, 0 <= k -> 0 <= b -> N.testbit (Z.to_N k) (Z.to_N b) = Z.testbit k b).
  { intros k b Hk Hb'. rewrite <- Z2N.inj_testbit, Z2N.id by lia. reflexivity. }
  apply (lt_by_bits _ _ (Z.to_N (s - 1))).
  - rewrite B by lia. destruct (Z.testbit m (s - 1)); [discriminate | reflexivity].
  - rewrite B by lia. exact Ti.
  - intros b Hb'. rewrite <- (N2Z.id b), !B by lia. symmetry. apply bits_above_merge; fold s; lia.
Qed.
(* At and above the merge height every sibling is on the left, just below it on the right ([top_bit_zero]): two leaves
   whose directions agree up to both merge heights merge with the last leaf at the same height ... *)
Lemma merge_le i k m len : 0 <= k <= m -> blen (Z.lxor k m) <= len ->
  (forall j, 0 <= j < len -> rule i (blen (Z.lxor i m)) j = rule k (blen (Z.lxor k m)) j) ->
  blen (Z.lxor k m) <= blen (Z.lxor i m).
Proof.
  intros Hk Hl E. pose proof (blen_nonneg (Z.lxor i m)). destruct (Z.lt_ge_cases (blen (Z.lxor i m)) (blen (Z.lxor k m))) as [Lt|Ge]; [exfalso | exact Ge].
  specialize (E (blen (Z.lxor k m) - 1) ltac:(lia)).
  rewrite rule_high, rule_low, top_bit_zero in E by lia. discriminate.
Qed.
(* ... and are the same leaf: below that height their bits are the directions, above it the bits of the last leaf *)
Lemma rule_injective i k m len : 0 <= i <= m -> 0 <= k <= m ->
  blen (Z.lxor i m) <= len -> blen (Z.lxor k m) <= len ->
  (forall j, 0 <= j < len -> rule i (blen (Z.lxor i m)) j = rule k (blen (Z.lxor k m)) j) -> i = k.
Proof.
  intros Hi Hk Li Lk E.
  assert (Es : blen (Z.lxor i m) = blen (Z.lxor k m)).
  { apply Z.le_antisymm; [apply (merge_le k i m len); auto; intros j Hj; symmetry; auto | apply (merge_le i k m len); auto]. }
  apply Z.bits_inj'. intros j Hj. destruct (Z.lt_ge_cases j (blen (Z.lxor i m))) as [Lt|Ge].
  - specialize (E j ltac:(lia)). rewrite !rule_low in E by lia. exact E.
  - rewrite (bits_above_merge i m), (bits_above_merge k m) by lia. reflexivity.
Qed.
Local Close Scope Z_scope.

Section Full.
Variable H : bytes -> bytes.
Notation node := (Rhp.node H).
Notation mroot := (Rhp.mroot H).
Notation hash := bytes.
Variable is_leaf : hash -> Prop.

Definition LeafNodeCollision : Prop := exists y a b : hash, is_leaf y /\ y = node a b.
Definition Collision : Prop := NodeCollision H \/ LeafNodeCollision.

Lemma node_inj_or_collision a b c d : node a b = node c d -> (a = c /\ b = d) \/ Collision.
Proof. intros E. destruct (Tree.node_inj bytes bytes_eq_dec node a b c d E) as [D|C]; [left; exact D | right; left; exact C]. Qed.

Lemma leaf_node y l r : is_leaf y -> y = node l r -> Collision.
Proof. intros Ly E. right. exists y, l, r. split; assumption. Qed.

(* one step of the fold from the top: which way it went, and what was below *)
Lemma fold_step x i sth p s l r : fold_rule H x i sth (p ++ [s]) = node l r ->
  (if rule i sth (Z.of_nat (length p)) then s = l /\ fold_rule H x i sth p = r else fold_rule H x i sth p = l /\ s = r) \/ Collision.
Proof. rewrite fold_rule_snoc. destruct (rule i sth _); intros E; destruct (node_inj_or_collision _ _ _ _ E) as [D|C]; auto. Qed.

(* a chain with at least one hash that ends in a single leaf *)
Lemma through_leaf L x i sth p : Forall is_leaf L -> length L = 1%nat -> p <> [] -> fold_rule H x i sth p = mroot L -> Collision.
Proof.
  intros FL Ln Np E. destruct L as [|l [|l2 r]]; try discriminate. inversion FL; subst.
  destruct p as [|s p _] using rev_ind; [congruence|]. rewrite fold_rule_snoc in E. cbn in E.
  destruct (rule i sth _); apply (leaf_node l _ _ ltac:(assumption) (eq_sym E)).
Qed.

(* a chain longer than the tree is deep runs through a leaf: collision *)
Lemma too_long c : forall L x i sth p, Forall is_leaf L -> (1 <= length L <= 2 ^ c)%nat -> (c < length p)%nat ->
  fold_rule H x i sth p = mroot L -> Collision.
Proof.
  intros L. revert c. induction L as [L L1 | a L1 L2 Len1 Len2 Em _ IH1 IH2] using (sp_ind H); intros c x i sth p FL Ln Lp E.
  - apply (through_leaf L x i sth p FL); [lia | intros ->; cbn in Lp; lia | exact E].
  - rewrite app_length, Len1 in Ln. apply Forall_app in FL. destruct FL as [F1 F2].
    assert (a < c)%nat by (apply (Nat.pow_lt_mono_r_iff 2); lia).
    destruct p as [|s p _] using rev_ind; [cbn in Lp; lia|]. rewrite app_length in Lp. cbn [length] in Lp.
    rewrite Em in E. destruct (fold_step _ _ _ _ _ _ _ E) as [D|C]; [|exact C].
    destruct (rule i sth _); destruct D as [D1 D2].
    + apply (IH2 a x i sth p F2); [lia | lia | exact D2].
    + apply (IH1 a x i sth p F1); [lia | lia | exact D1].
Qed.

(* a chain shorter than a perfect tree is deep ends at an inner node: collision *)
Lemma too_short c : forall L x i sth p, is_leaf x -> (length L = 2 ^ c)%nat -> (length p < c)%nat ->
  fold_rule H x i sth p = mroot L -> Collision.
Proof.
  intros L. revert c. induction L as [L L1 | a L1 L2 Len1 Len2 Em _ IH1 IH2] using (sp_ind H); intros c x i sth p Lx Ln Lp E; unfold Rhp.hash in *.
  - destruct c; [lia|]. pose proof (pow2_pos_nat c). rewrite Nat.pow_succ_r' in Ln. lia.
  - rewrite app_length, Len1 in Ln. destruct (nat_pow2_halves c a (length L2)) as [-> Len2']; [lia..|].
    rewrite Em in E. destruct p as [|s p _] using rev_ind; [exact (leaf_node x _ _ Lx E)|]. rewrite app_length in Lp. cbn [length] in Lp.
    destruct (fold_step _ _ _ _ _ _ _ E) as [D|C]; [|exact C].
    destruct (rule i sth _); destruct D as [D1 D2].
    + apply (IH2 a x i sth p Lx); [exact Len2' | lia | exact D2].
    + apply (IH1 a x i sth p Lx); [exact Len1 | lia | exact D1].
Qed.

(* Whatever direction each step takes: a chain from a leaf hash to the root of leaf hashes is the honest proof of some
   leaf k, taking at every step the direction the verifier's rule gives for k -- or a collision is in hand. *)
Lemma chain_sound L : forall fuel x i sth p d, Forall is_leaf L -> is_leaf x -> (1 <= length L <= fuel)%nat ->
  fold_rule H x i sth p = mroot L ->
  (exists k, (k < length L)%nat /\ x = nth k L d /\ p = sp_prove H fuel L k /\
     forall j, (0 <= j < Z.of_nat (length p))%Z ->
       rule i sth j = rule (Z.of_nat k) (blen (Z.lxor (Z.of_nat k) (Z.of_nat (length L) - 1))) j) \/ Collision.
Proof.
  induction L as [L L1 | a L1 L2 Len1 Len2 Em Hp IH1 IH2] using (sp_ind H); intros fuel x i sth p d FL Lx Ln E.
  - destruct p as [|s p]; [|right; apply (through_leaf L x i sth (s :: p) FL); [lia | discriminate | exact E]].
    destruct L as [|l [|l2 r]]; cbn in Ln, L1; try lia. left. exists 0%nat. rewrite sp_prove_short by (cbn; lia).
    cbn. repeat split; [lia | exact E | lia].
  - apply Forall_app in FL. destruct FL as [F1 F2]. pose proof (pow2_pos_nat a) as P. rewrite app_length, Len1 in *.
    destruct fuel as [|f]; [lia|]. rewrite Em in E.
    (* no hashes at all: the leaf would be the root of two or more leaves *)
    destruct p as [|s p _] using rev_ind; [right; exact (leaf_node x _ _ Lx E)|].
    destruct (fold_step _ _ _ _ _ _ _ E) as [D|C]; [|right; exact C]. clear E.
    destruct (rule i sth (Z.of_nat (length p))) eqn:Top; destruct D as [D1 D2].
    + (* the chain comes up from the right half *)
      destruct (IH2 f x i sth p d F2 Lx ltac:(lia) D2) as [(k & Hk & Ex & Ep & R)|C]; [left | right; exact C].
      destruct (merge_right (2 ^ a + k) (2 ^ a + length L2) k (length L2) a eq_refl eq_refl) as (Es & Hs & Rr); [lia|].
      exists (2 ^ a + k)%nat. rewrite Hp, app_nth2, Len1 by lia. destruct (Nat.ltb_spec (2 ^ a + k) (2 ^ a)); [lia|].
      replace (2 ^ a + k - 2 ^ a)%nat with k by lia. rewrite Es, <- D1, <- Ep.
      repeat split; [lia | exact Ex |]. intros j Hj. rewrite app_length in Hj. cbn [length] in Hj. rewrite Rr by (rewrite <- ?Es; lia).
      destruct (Z.eq_dec j (Z.of_nat (length p))) as [->|Nj]; [|apply R; lia].
      rewrite Top, rule_high; [reflexivity|]. rewrite Ep. apply (sp_prove_verifies H f L2 k d Hk); lia.
    + (* from the left, perfect half *)
      destruct (IH1 f x i sth p d F1 Lx ltac:(lia) D1) as [(k & Hk & Ex & Ep & R)|C]; [left | right; exact C].
      destruct (merge_left k (2 ^ a + length L2) a) as (Es & Tb & Rl); [lia..|].
      assert (LenP : length p = a) by (rewrite Ep; apply sp_prove_length_perfect; lia).
      exists k. rewrite Hp, app_nth1 by lia. destruct (Nat.ltb_spec k (2 ^ a)); [|lia]. rewrite Es, <- D2, <- Ep.
      repeat split; [lia | exact Ex |]. intros j Hj. rewrite app_length in Hj. cbn [length] in Hj.
      destruct (Z.eq_dec j (Z.of_nat (length p))) as [->|Nj].
      * rewrite Top, LenP, rule_low, Tb by lia. reflexivity.
      * rewrite Rl by lia. apply R. lia.
Qed.

(* what verifies with at least merge-height many hashes is the true leaf with its true siblings, or a collision *)
Theorem sp_sound_fold n : forall L i d x p, length L = n -> Forall is_leaf L -> is_leaf x -> (i < length L)%nat ->
  let sth := StorageProof.blen (Z.lxor (Z.of_nat i) (Z.of_nat (length L) - 1)) in
  (sth <= Z.of_nat (length p))%Z ->
  fold_rule H x (Z.of_nat i) sth p = mroot L ->
  (x = nth i L d /\ p = sp_prove H (length L) L i) \/ Collision.
Proof.
  intros L i d x p _ FL Lx Hi sth Hs E.
  destruct (chain_sound L (length L) x (Z.of_nat i) sth p d FL Lx ltac:(lia) E) as [(k & Hk & Ex & Ep & R)|C]; [left | right; exact C].
  assert (Ek : Z.of_nat i = Z.of_nat k).
  { apply (rule_injective _ _ (Z.of_nat (length L) - 1) (Z.of_nat (length p))); [lia | lia | exact Hs | | exact R].
    rewrite Ep. apply (sp_prove_verifies H (length L) L k d Hk (Nat.le_refl _)). }
  apply Nat2Z.inj in Ek. subst k. split; assumption.
Qed.
End Full.

Section FullV2.
Variable H : bytes -> bytes.
(* leaf hashes are hashes of 0x00-prefixed data, node hashes of 0x01-prefixed pairs *)
Definition leaf_hash_form (y : bytes) : Prop := exists d, y = H (0%N :: d).

(* a proof shorter than the merge height gets the invalid marker *)
Lemma sp_root_v2_short x i filesize proof :
  let last := (if (filesize mod 64 =? 0)%Z then ((filesize / 64 - 1) mod 2 ^ 64)%Z else (filesize / 64)%Z) in
  (length proof < Z.to_nat (StorageProof.blen (Z.lxor i last)))%nat -> sp_root_v2 H x i filesize proof = repeat 0%N 32.
Proof.
  cbv zeta. intros Hl. unfold sp_root_v2. change Validate.bitlen with StorageProof.blen.
  apply Nat.ltb_lt in Hl. rewrite Hl. reflexivity.
Qed.

(* soundness: for a file of any size and a proof of any length the verifier lets through, what verifies against the plain
   root of the leaf hashes is the hash of leaf i itself, with exactly the siblings of leaf i -- or a collision is in hand
   (two different pairs with one node hash, or a leaf hash that is also a node hash) *)
Theorem storage_proof_v2_sound (L : list bytes) filesize i d x proof : (0 < filesize < 2 ^ 64)%Z ->
  Z.of_nat (length L) = sp_num_leaves filesize -> (i < length L)%nat ->
  Forall leaf_hash_form L -> leaf_hash_form x ->
  (StorageProof.blen (Z.lxor (Z.of_nat i) (Z.of_nat (length L) - 1)) <= Z.of_nat (length proof))%Z ->
  sp_root_v2 H x (Z.of_nat i) filesize proof = Rhp.mroot H L ->
  (x = nth i L d /\ proof = sp_prove H (length L) L i) \/ Collision H leaf_hash_form.
Proof.
  intros Hf Hn Hi FL Lx Hs Hv.
  rewrite sp_root_v2_is_fold in Hv; rewrite (last_is_pred filesize Hf), <- Hn in *.
  - exact (sp_sound_fold H leaf_hash_form (length L) L i d x proof eq_refl FL Lx Hi Hs Hv).
  - split; [apply blen_nonneg | exact Hs].
Qed.
End FullV2.
