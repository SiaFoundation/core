(* The streaming accumulators (rhp/v2 sectorAccumulator / proofAccumulator with height-0 inserts,
   blake2b.Accumulator) compute the root of the plainly defined tree [mroot] (split at the largest power of two
   strictly below the length), for every list of leaves. *)
From Coq Require Import List NArith Arith Bool Lia.
From Sia Require Import Prim.Tok Merkle.Tree Merkle.Forest Merkle.Rhp Merkle.RhpProofs.
Import ListNotations.

Lemma pow2_pos_nat k : (0 < 2 ^ k)%nat.
Proof. apply Nat.neq_0_lt_0, Nat.pow_nonzero. discriminate. Qed.

Lemma firstn_left {A} (L1 L2 : list A) k : length L1 = k -> firstn k (L1 ++ L2) = L1.
Proof. intros <-. rewrite firstn_app, Nat.sub_diag, firstn_all. apply app_nil_r. Qed.
Lemma skipn_left {A} (L1 L2 : list A) k : length L1 = k -> skipn k (L1 ++ L2) = L2.
Proof. intros <-. rewrite skipn_app, Nat.sub_diag, skipn_all. reflexivity. Qed.

Section RhpRoot.
Variable H : bytes -> bytes.
Notation node := (Rhp.node H).
Notation mroot := (Rhp.mroot H).
Notation mroot_fuel := (Rhp.mroot_fuel H).

Lemma pow2_below_spec fuel : forall p n, (0 < p)%nat -> (p < n)%nat -> (n <= p * 2 ^ fuel)%nat ->
  exists a, pow2_below fuel p n = (p * 2 ^ a)%nat /\ (p * 2 ^ a < n)%nat /\ (n <= 2 * (p * 2 ^ a))%nat.
Proof.
  induction fuel as [|f IH]; intros p n Hp Hlt Hn; cbn [pow2_below].
  - cbn in Hn. lia.
  - destruct (Nat.ltb_spec (2 * p) n) as [L|L].
    + destruct (IH (2 * p)%nat n ltac:(lia) L) as (a & E & A & B).
      { rewrite Nat.pow_succ_r' in Hn. lia. }
      exists (S a). rewrite Nat.pow_succ_r'. rewrite E. split; [lia|]. split; lia.
    + exists 0%nat. cbn. lia.
Qed.
Lemma split_point_spec n : (2 <= n)%nat -> exists a, split_point n = (2 ^ a)%nat /\ (2 ^ a < n)%nat /\ (n <= 2 ^ S a)%nat.
Proof.
  intros Hn. unfold split_point. destruct (pow2_below_spec n 1 n ltac:(lia) ltac:(lia)) as (a & E & A & B).
  { pose proof (Nat.pow_gt_lin_r 2 n). lia. }
  exists a. rewrite E. rewrite Nat.pow_succ_r'. lia.
Qed.
Lemma split_point_lt n : (2 <= n)%nat -> (0 < split_point n < n)%nat.
Proof. intros Hn. destruct (split_point_spec n Hn) as (a & -> & A & _). pose proof (pow2_pos_nat a). lia. Qed.
Lemma pow2_sandwich a k n : (2 ^ a < n)%nat -> (n <= 2 ^ S a)%nat -> (2 ^ k < n)%nat -> (n <= 2 ^ S k)%nat -> a = k.
Proof.
  intros A1 A2 K1 K2.
  assert (X : (2 ^ a < 2 ^ S k)%nat) by lia. apply Nat.pow_lt_mono_r_iff in X; [|lia].
  assert (Y : (2 ^ k < 2 ^ S a)%nat) by lia. apply Nat.pow_lt_mono_r_iff in Y; [|lia]. lia.
Qed.
Lemma split_point_pow k m : (0 < m)%nat -> (m <= 2 ^ k)%nat -> split_point (2 ^ k + m) = (2 ^ k)%nat.
Proof.
  intros M1 M2. pose proof (pow2_pos_nat k) as P.
  destruct (split_point_spec (2 ^ k + m) ltac:(lia)) as (a & E & A & B).
  rewrite E. f_equal. apply (pow2_sandwich a k (2 ^ k + m)); auto; [lia|]. rewrite Nat.pow_succ_r'. lia.
Qed.

Lemma mroot_fuel_S f x y r :
  mroot_fuel (S f) (x :: y :: r) =
  node (mroot_fuel f (firstn (split_point (length (x :: y :: r))) (x :: y :: r))) (mroot_fuel f (skipn (split_point (length (x :: y :: r))) (x :: y :: r))).
Proof. reflexivity. Qed.
Lemma mroot_fuel_irrelevant f1 : forall ls f2, (length ls <= f1)%nat -> (length ls <= f2)%nat -> mroot_fuel f1 ls = mroot_fuel f2 ls.
Proof.
  induction f1 as [|f1 IH]; intros ls f2 L1 L2.
  - destruct ls as [|x [|y r]]; cbn in L1; try lia. destruct f2; reflexivity.
  - destruct ls as [|x [|y r]]; [destruct f2; reflexivity | destruct f2; reflexivity |].
    destruct f2 as [|f2]; [cbn in L2; lia|]. rewrite !mroot_fuel_S.
    set (ls := x :: y :: r) in *. pose proof (split_point_lt (length ls) ltac:(cbn; lia)) as Sp.
    f_equal; apply IH; rewrite ?firstn_length, ?skipn_length; lia.
Qed.
Lemma mroot_unfold ls : (2 <= length ls)%nat ->
  mroot ls = node (mroot (firstn (split_point (length ls)) ls)) (mroot (skipn (split_point (length ls)) ls)).
Proof.
  intros Ln. destruct ls as [|x [|y r]]; cbn [length] in Ln; try lia.
  pose proof (split_point_lt (length (x :: y :: r)) Ln) as Sp.
  unfold Rhp.mroot at 1. change (length (x :: y :: r)) with (S (S (length r))) at 1. rewrite mroot_fuel_S.
  unfold Rhp.mroot. f_equal; apply mroot_fuel_irrelevant; rewrite ?firstn_length, ?skipn_length; cbn [length] in *; lia.
Qed.
Lemma mroot_single x : mroot [x] = x. Proof. reflexivity. Qed.

Lemma mroot_app a b k : length a = (2 ^ k)%nat -> (0 < length b)%nat -> (length b <= 2 ^ k)%nat ->
  mroot (a ++ b) = node (mroot a) (mroot b).
Proof.
  intros La B1 B2. pose proof (pow2_pos_nat k) as P.
  rewrite mroot_unfold by (rewrite app_length; lia).
  rewrite app_length, La, (split_point_pow k (length b) B1 B2), (firstn_left a b _ La), (skipn_left a b _ La). reflexivity.
Qed.

Lemma perfect_root t : perfect hash t -> mroot (leaves hash t) = root hash node t.
Proof.
  induction t as [x|l IHl r IHr]; cbn [perfect leaves root]; intros P; [reflexivity|].
  destruct P as (Pl & Pr & Hh).
  assert (Ll := leaves_length hash l Pl). assert (Lr := leaves_length hash r Pr).
  pose proof (pow2_pos_nat (height hash r)) as P0.
  rewrite (mroot_app _ _ (height hash l) Ll) by (rewrite Lr, ?Hh; lia). rewrite IHl, IHr by assumption. reflexivity.
Qed.

Definition oroot (L : list hash) : option hash := match L with [] => None | _ :: _ => Some (mroot L) end.
Lemma oroot_some (L : list hash) : (0 < length L)%nat -> oroot L = Some (mroot L).
Proof. destruct L; [cbn; lia | reflexivity]. Qed.

(* pa_root_aux goes through the digits from the smallest tree up; what it carries is the plain root of the leaves R of
   the trees already passed, fewer than 2^k of them, so that a tree of 2^k leaves in front of them splits off as the left half *)
Lemma forest_root k ts : wf_from hash k ts -> forall R,
  (length R < 2 ^ k)%nat ->
  pa_root_aux H (oroot R) (roots_of hash node ts) = oroot (all_leaves hash ts ++ R).
Proof.
  revert k. induction ts as [|[t|] ts IH]; intros k W R LR; cbn [roots_of map option_map pa_root_aux all_leaves wf_from] in *.
  - reflexivity.
  - destruct W as (Pt & Ht & W). assert (Lt := leaves_length hash t Pt). rewrite Ht in Lt.
    pose proof (pow2_pos_nat k) as P0.
    rewrite <- app_assoc.
    assert (E : Some (match oroot R with None => root hash node t | Some r => node (root hash node t) r end) = oroot (leaves hash t ++ R)).
    { rewrite (oroot_some (leaves hash t ++ R)) by (rewrite app_length; lia). rewrite <- (perfect_root t Pt). f_equal.
      destruct R as [|x R']; cbn [oroot]; [rewrite app_nil_r; reflexivity|].
      symmetry. apply (mroot_app _ _ k Lt); cbn [length] in *; lia. }
    fold (roots_of hash node ts). rewrite E.
    apply (IH (S k) W (leaves hash t ++ R)). rewrite app_length, Lt, Nat.pow_succ_r'. lia.
  - fold (roots_of hash node ts). apply (IH (S k) W R). rewrite Nat.pow_succ_r'. lia.
Qed.

Theorem repr_root L ds : Repr hash node L ds -> pa_root H ds = mroot L.
Proof.
  intros (ts & W & <- & <-). unfold pa_root. pose proof (forest_root 0 ts W [] ltac:(cbn; lia)) as E. change (oroot []) with (@None hash) in E.
  rewrite app_nil_r in E. rewrite E. destruct (all_leaves hash ts); reflexivity.
Qed.

(* appending leaves one at a time from the empty accumulator (sectorAccumulator.appendNode, proofAccumulator.insertNode
   at height 0, blake2b.Accumulator.AddLeaf) and taking the root gives the plain tree root, for every list *)
Theorem streaming_root_is_plain_root (ls : list hash) :
  pa_root H (fold_left (fun a h => insert_node H h 0 a) ls []) = mroot ls.
Proof. apply repr_root. apply (acc_digits_repr H [] [] ls). apply repr_nil. Qed.

(* rhp/v2 MetaRoot: the accumulator for up to [limit] (= 65536) roots, above that a split at the largest power of two
   below the length and recursion; equal to the plain root for every list and every limit >= 1 *)
Fixpoint meta_root (fuel limit : nat) (ls : list hash) : hash :=
  if (length ls <=? limit)%nat then pa_root H (fold_left (fun a h => insert_node H h 0 a) ls [])
  else match fuel with
       | O => []
       | S f => let k := split_point (length ls) in node (meta_root f limit (firstn k ls)) (meta_root f limit (skipn k ls))
       end.
Theorem meta_root_is_plain_root fuel limit : (1 <= limit)%nat -> forall ls, (length ls <= fuel)%nat -> meta_root fuel limit ls = mroot ls.
Proof.
  intros Hl. induction fuel as [|f IH]; intros ls Lf; cbn [meta_root].
  - destruct (Nat.leb_spec (length ls) limit); [apply streaming_root_is_plain_root | lia].
  - destruct (Nat.leb_spec (length ls) limit) as [L|L]; [apply streaming_root_is_plain_root|].
    pose proof (split_point_lt (length ls) ltac:(lia)) as Sp.
    rewrite (mroot_unfold ls) by lia. cbv zeta. f_equal; apply IH; rewrite ?firstn_length, ?skipn_length; lia.
Qed.
End RhpRoot.
