(* The last subtree of a range proof may be cut off by the end of the list. Its plain root, inserted at the height of the
   full block, joins the trees above it exactly as [mroot] splits the whole list: at the largest power of two below the length. *)
From Coq Require Import List NArith Arith Bool Lia.
From Sia Require Import Prim.Tok Merkle.Tree Merkle.Forest Merkle.Rhp Merkle.RhpProofs Merkle.RhpRoot.
From Sia Require Import Merkle.RgRpv1 Merkle.RgStruct.
Import ListNotations.

Section RRight.
Variable H : bytes -> bytes.
Notation node := (Rhp.node H).
Notation mroot := (Rhp.mroot H).
Notation leaves := (leaves hash).
Notation all_leaves := (all_leaves hash).
Notation wf_from := (wf_from hash).
Notation roots_of := (roots_of hash node).
Notation oroot := (RhpRoot.oroot H).

Lemma carry_root ts : forall lv (R : list hash), wf_from lv ts -> (0 < length R <= 2 ^ lv)%nat ->
  pa_root_aux H None (carry H (mroot R) (roots_of ts)) = oroot (all_leaves ts ++ R).
Proof.
  induction ts as [|[t0|] ts IH]; intros lv R W HR; cbn [Forest.roots_of map option_map carry pa_root_aux Forest.all_leaves Forest.wf_from] in *.
  - symmetry. apply oroot_some, HR.
  - destruct W as (P0 & Eh0 & W). fold (Forest.roots_of hash node ts).
    assert (L0 := leaves_length hash t0 P0). rewrite Eh0 in L0.
    rewrite <- (perfect_root H t0 P0), <- (mroot_app H (leaves t0) R lv L0) by lia.
    rewrite <- app_assoc. apply (IH (S lv) (leaves t0 ++ R) W). rewrite app_length, L0, Nat.pow_succ_r'. lia.
  - fold (Forest.roots_of hash node ts).
    rewrite <- (oroot_some H R) by apply HR.
    apply (forest_root H (S lv) ts W R). rewrite Nat.pow_succ_r'. lia.
Qed.

Lemma insert_root h : forall lv ts (R : list hash), wf_from lv ts -> lowfree h (roots_of ts) -> (0 < length R <= 2 ^ (lv + h))%nat ->
  pa_root_aux H None (insert_node H (mroot R) h (roots_of ts)) = oroot (all_leaves ts ++ R).
Proof.
  induction h as [|h IH]; intros lv ts R W Lf HR.
  - rewrite Nat.add_0_r in HR. apply (carry_root ts lv R W HR).
  - rewrite <- Nat.add_succ_comm in HR. destruct ts as [|[t0|] r]; cbn [Forest.roots_of map option_map insert_node pa_root_aux Forest.all_leaves].
    + exact (IH (S lv) [] R I (lowfree_nil h) HR).
    + destruct Lf as [Lf _]. discriminate Lf.
    + exact (IH (S lv) r R W (proj2 Lf) HR).
Qed.

Theorem insert_last L ds h (R : list hash) : Repr hash node L ds -> (exists k, length L = k * 2 ^ h)%nat -> (0 < length R <= 2 ^ h)%nat ->
  pa_root H (insert_node H (mroot R) h ds) = mroot (L ++ R).
Proof.
  intros Rp Dv HR. pose proof (repr_lowfree H L ds h Rp Dv) as Lf. destruct Rp as (ts & W & <- & <-).
  unfold pa_root. rewrite (insert_root h 0%nat ts R W Lf HR).
  destruct (all_leaves ts ++ R) eqn:E; [apply app_eq_nil in E; destruct E as [_ ->]; cbn in HR; lia | reflexivity].
Qed.
End RRight.
