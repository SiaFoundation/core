(* addLeaves, structurally: when leaves are appended to the forest, the proof of every old leaf is its old proof
   followed by a list of hashes that depends only on the height of the tree the leaf was in -- which is what the
   treeGrowth table of consensus/merkle.go stores, one list per height. *)
From Coq Require Import List NArith ZArith Arith Bool Lia.
From Sia Require Import Prim.Tok Merkle.Pow2 Merkle.Tree Merkle.Forest Merkle.Acc Merkle.AccProofs.
Import ListNotations.

Section Growth.
Variable H : bytes -> bytes.
Notation node := (Acc.node H).
Notation ptree := (ptree hash).
Notation root := (root hash node).
Notation sibs := (sibs hash node).
Notation perfect := (perfect hash).
Notation height := (height hash).
Notation leaves := (leaves hash).
Notation all_leaves := (all_leaves hash).
Notation wf_from := (wf_from hash).
Notation tinc := (tinc hash).

(* the proof of the leaf at relative index r of tree t, top-down *)
Definition tproof (t : ptree) (r : N) : list hash := sibs t (path (height t) r).

Lemma nleaves t : perfect t -> N.of_nat (length (leaves t)) = (2 ^ N.of_nat (height t))%N.
Proof. exact (leaves_len t). Qed.

(* where a tree inserted by the carry chain ends up: as a subtree reached by a fixed list of siblings *)
Lemma inserted ts : forall lv X, wf_from lv ts -> perfect X -> height X = lv ->
  exists T off pre, perfect T /\
    forall q, (q < 2 ^ N.of_nat lv)%N ->
      locate (tinc X ts) (N.of_nat (length (all_leaves ts)) + q)%N = Some (T, (off + q)%N) /\
      tproof T (off + q) = pre ++ tproof X q.
Proof.
  induction ts as [|[t0|] ts IH]; intros lv X W PX HX.
  - exists X, 0%N, []. split; [exact PX|]. intros q Hq. split; [|reflexivity].
    apply (locate_here X []). rewrite (nleaves X PX), HX. exact Hq.
  - cbn [wf_from] in W. destruct W as (P0 & H0 & W).
    assert (PX' : perfect (Node hash t0 X)) by (cbn; repeat split; auto; lia).
    assert (HX' : height (Node hash t0 X) = S lv) by (cbn; lia).
    destruct (IH (S lv) (Node hash t0 X) W PX' HX') as (T & off & pre & PT & F).
    exists T, (off + 2 ^ N.of_nat lv)%N, (pre ++ [root t0]). split; [exact PT|]. intros q Hq.
    destruct (F (2 ^ N.of_nat lv + q)%N) as [L S]; [rewrite N_pow2_S; lia|].
    cbn [tinc locate all_leaves]. rewrite app_length, Nat2N.inj_add, (nleaves t0 P0), H0, <- !N.add_assoc.
    split; [exact L|]. rewrite S. unfold tproof. cbn [Tree.height]. rewrite H0, path_right. cbn [Tree.sibs].
    rewrite <- app_assoc, HX. reflexivity.
  - exists X, 0%N, []. split; [exact PX|]. intros q Hq. split; [|reflexivity].
    apply (locate_here X ts). rewrite (nleaves X PX), HX. exact Hq.
Qed.

(* where the old trees end up: every leaf of the old tree of height h gets the same list of siblings on top *)
Lemma old_trees ts : forall lv X, wf_from lv ts -> perfect X -> height X = lv ->
  forall h, exists T' pre, forall k t r, locate ts k = Some (t, r) -> height t = h ->
    exists r', locate (tinc X ts) k = Some (T', r') /\ tproof T' r' = pre ++ tproof t r.
Proof.
  induction ts as [|[t0|] ts IH]; intros lv X W PX HX h.
  - exists X, []. intros k t r L. discriminate.
  - cbn [wf_from] in W. destruct W as (P0 & H0 & W).
    assert (PX' : perfect (Node hash t0 X)) by (cbn; repeat split; auto; lia).
    assert (HX' : height (Node hash t0 X) = S lv) by (cbn; lia).
    destruct (Nat.eq_dec h lv) as [->|Nh].
    + (* the tree at this digit: it becomes the left child of the carried tree *)
      destruct (inserted ts (S lv) (Node hash t0 X) W PX' HX') as (T & off & pre & PT & F).
      exists T, (pre ++ [root X]). intros k t r L Ht.
      destruct (locate_inv _ _ _ _ _ L) as [[_ L']|(-> & -> & Hr)].
      * (* a leaf of a higher digit cannot have height lv *)
        exfalso. destruct (locate_digit _ _ _ _ L') as (i & Hd & _). destruct (wf_nth (S lv) ts i t W Hd). lia.
      * rewrite (nleaves t0 P0), H0 in Hr. destruct (F r) as [L' S']; [rewrite N_pow2_S; lia|].
        eexists. cbn [tinc locate]. split; [exact L'|]. rewrite S'. unfold tproof. cbn [Tree.height].
        rewrite H0, (path_left lv _ Hr). cbn [Tree.sibs]. rewrite <- app_assoc. reflexivity.
    + destruct (IH (S lv) (Node hash t0 X) W PX' HX' h) as (T' & pre & F).
      exists T', pre. intros k t r L Ht. cbn [tinc locate].
      destruct (locate_inv _ _ _ _ _ L) as [[_ L']|(-> & _)]; [exact (F k t r L' Ht) | lia].
  - (* nothing is carried: the new tree takes the empty digit, every old leaf keeps its tree and proof *)
    cbn [wf_from] in W.
    exists (match nth_error ts (h - S lv) with Some (Some th) => th | _ => X end), []. intros k t r L Ht. cbn [locate] in L.
    destruct (locate_digit _ _ _ _ L) as (i & Hd & _). destruct (wf_nth (S lv) ts i t W Hd) as [_ Hi].
    replace (h - S lv)%nat with i by lia. rewrite Hd.
    exists r. cbn [tinc]. rewrite locate_above by exact (locate_lt _ _ _ _ L). split; [exact L | reflexivity].
Qed.

Theorem growth_uniform A : forall L h, exists g, forall k t r, locate (forest_of L) k = Some (t, r) -> height t = h ->
  naive_proof H (L ++ A) k = naive_proof H L k ++ g.
Proof.
  induction A as [|a A IH]; intros L h.
  - exists []. intros k t r _ _. rewrite !app_nil_r. reflexivity.
  - destruct (old_trees (forest_of L) 0%nat (Leaf hash a) (forest_wf L) I eq_refl h) as (T' & pre & F).
    destruct (IH (L ++ [a]) (height T')) as (g' & G).
    exists (rev pre ++ g'). intros k t r Lk Ht.
    destruct (F k t r Lk Ht) as (r' & L' & S').
    assert (FE : forest_of (L ++ [a]) = tinc (Leaf hash a) (forest_of L)) by (unfold Acc.forest_of; rewrite fold_left_app; reflexivity).
    replace (L ++ a :: A) with ((L ++ [a]) ++ A) by (rewrite <- app_assoc; reflexivity).
    rewrite (G k T' r' ltac:(rewrite FE; exact L') eq_refl).
    unfold naive_proof. rewrite FE, L', Lk. fold (tproof T' r'). fold (tproof t r). rewrite S', rev_app_distr, <- app_assoc. reflexivity.
Qed.
End Growth.
