(* Perfect Merkle trees, proofs as in consensus/merkle.go proofRoot.
   Positions are bit lists, MSB first (top-down).  Go's loop uses bit i of the leaf
   index for proof element i, i.e. LSB first, proofs bottom-up: hence the [rev]s.
   Then [set], and which siblings of one position change when another position is set (what updateProof relies on). *)
From Coq Require Import List Arith Lia Bool.
Import ListNotations.

Section Tree.
Variable hash : Type.
Variable hash_eq_dec : forall a b : hash, {a = b} + {a <> b}.
Variable node : hash -> hash -> hash.

Definition NodeCollision : Prop := exists a b c d, (a, b) <> (c, d) /\ node a b = node c d.

Inductive ptree : Type := Leaf (x : hash) | Node (l r : ptree).

Fixpoint height (t : ptree) : nat := match t with Leaf _ => 0 | Node l _ => S (height l) end.
Fixpoint perfect (t : ptree) : Prop :=
  match t with Leaf _ => True | Node l r => perfect l /\ perfect r /\ height l = height r end.
Fixpoint root (t : ptree) : hash := match t with Leaf x => x | Node l r => node (root l) (root r) end.
Fixpoint leaves (t : ptree) : list hash := match t with Leaf x => [x] | Node l r => leaves l ++ leaves r end.

Fixpoint get (t : ptree) (p : list bool) : option hash :=
  match t, p with
  | Leaf x, [] => Some x
  | Node l r, b :: p => get (if b then r else l) p
  | _, _ => None
  end.

Fixpoint set (t : ptree) (p : list bool) (y : hash) : ptree :=
  match t, p with
  | Leaf _, [] => Leaf y
  | Node l r, b :: p => if b then Node l (set r p y) else Node (set l p y) r
  | _, _ => t
  end.

(* sibling hashes along the path, top-down *)
Fixpoint sibs (t : ptree) (p : list bool) : list hash :=
  match t, p with
  | Node l r, b :: p => root (if b then l else r) :: sibs (if b then r else l) p
  | _, _ => []
  end.

Definition step (acc : hash) (bh : bool * hash) : hash :=
  let '(b, h) := bh in if b then node h acc else node acc h.
(* Go: proofRoot(leafHash, leafIndex, proof); bits LSB first *)
Definition proofRoot (leaf : hash) (bits_lsb : list bool) (proof : list hash) : hash :=
  fold_left step (combine bits_lsb proof) leaf.

Lemma combine_snoc {A B} (xs : list A) (ys : list B) x y :
  length xs = length ys -> combine (xs ++ [x]) (ys ++ [y]) = combine xs ys ++ [(x, y)].
Proof.
  revert ys. induction xs as [|a xs IH]; intros [|b ys] E; simpl in *; try discriminate; auto.
  f_equal. apply IH. lia.
Qed.

Lemma proofRoot_snoc leaf bs ps b s : length bs = length ps ->
  proofRoot leaf (bs ++ [b]) (ps ++ [s]) = step (proofRoot leaf bs ps) (b, s).
Proof. intros E. unfold proofRoot. rewrite combine_snoc by exact E. now rewrite fold_left_app. Qed.

Lemma sibs_length t p x : perfect t -> get t p = Some x -> length (sibs t p) = height t /\ length p = height t.
Proof.
  revert p. induction t as [y|l IHl r IHr]; intros [|b p] Hp Hg; simpl in *; try discriminate; auto.
  destruct Hp as (Hl & Hr & Hh). destruct b.
  - destruct (IHr p Hr Hg). lia.
  - destruct (IHl p Hl Hg). lia.
Qed.

Theorem proof_complete t p x : perfect t -> get t p = Some x ->
  proofRoot x (rev p) (rev (sibs t p)) = root t.
Proof.
  revert p. induction t as [y|l IHl r IHr]; intros p Hp Hg.
  - destruct p; simpl in *; [|discriminate]. now inversion Hg.
  - destruct p as [|b p]; simpl in *; [discriminate|].
    destruct Hp as (Hl & Hr & Hh).
    destruct b; simpl.
    + destruct (sibs_length r p x Hr Hg) as [E1 E2].
      rewrite proofRoot_snoc by (rewrite !rev_length; lia). simpl. now rewrite (IHr p Hr Hg).
    + destruct (sibs_length l p x Hl Hg) as [E1 E2].
      rewrite proofRoot_snoc by (rewrite !rev_length; lia). simpl. now rewrite (IHl p Hl Hg).
Qed.

Lemma get_total t p : perfect t -> length p = height t -> exists x, get t p = Some x.
Proof.
  revert p. induction t as [y|l IHl r IHr]; intros [|b p] Hp E; simpl in *; try discriminate; eauto.
  destruct Hp as (Hl & Hr & Hh). destruct b; [apply IHr|apply IHl]; auto; lia.
Qed.

Lemma node_inj a b c d : node a b = node c d -> (a = c /\ b = d) \/ NodeCollision.
Proof.
  intros E. destruct (hash_eq_dec a c) as [Ea|Na], (hash_eq_dec b d) as [Eb|Nb]; [left; auto | | |];
    right; exists a, b, c, d; split; congruence.
Qed.

(* soundness: a proof of the right length that hashes to the root proves the true leaf
   and carries the true siblings, or we hold a collision of [node] *)
Theorem proof_sound t p x ps : perfect t -> length p = height t -> length ps = height t ->
  proofRoot x (rev p) (rev ps) = root t -> (get t p = Some x /\ ps = sibs t p) \/ NodeCollision.
Proof.
  revert p ps. induction t as [y|l IHl r IHr]; intros p ps Hp Lp Lps E.
  - destruct p; destruct ps; simpl in *; try discriminate. left. unfold proofRoot in E. simpl in E. subst. auto.
  - destruct p as [|b p]; destruct ps as [|s ps]; simpl in *; try discriminate.
    destruct Hp as (Hl & Hr & Hh).
    rewrite proofRoot_snoc in E by (rewrite !rev_length; lia). simpl in E.
    destruct b; apply node_inj in E; destruct E as [[E1 E2]|C]; auto; subst s.
    + destruct (IHr p ps Hr) as [[G S]|C]; try lia; auto. left. split; auto. now f_equal.
    + destruct (IHl p ps Hl) as [[G S]|C]; try lia; auto. left. split; auto. now f_equal.
Qed.

Lemma set_height t p y : height (set t p y) = height t.
Proof. revert p; induction t as [x|l IHl r IHr]; intros [|b p]; simpl; auto. destruct b; simpl; auto. Qed.

Lemma set_perfect t p y : perfect t -> perfect (set t p y).
Proof.
  revert p; induction t as [x|l IHl r IHr]; intros [|b p] H; simpl in *; auto.
  destruct H as (Hl & Hr & Hh). destruct b; simpl; rewrite ?set_height; auto.
Qed.

Lemma get_set_same t p y x : get t p = Some x -> get (set t p y) p = Some y.
Proof. revert p; induction t as [z|l IHl r IHr]; intros [|b p] H; simpl in *; try discriminate; auto. destruct b; simpl; auto. Qed.

Lemma get_set_other t p q y : p <> q -> length p = length q -> get (set t q y) p = get t p.
Proof.
  revert p q; induction t as [z|l IHl r IHr]; intros [|b p] [|c q] Hne E; simpl in *; try discriminate; try congruence; auto.
  destruct c, b; simpl; auto; apply IHr || apply IHl; try congruence; lia.
Qed.

Lemma set_comm t : forall p q x y, p <> q -> length p = length q -> set (set t p x) q y = set (set t q y) p x.
Proof.
  induction t as [z|l IHl r IHr]; intros [|a p] [|b q] x y Hne Hl; cbn in Hl |- *; try discriminate; try congruence.
  destruct a, b; cbn; try reflexivity; f_equal; (apply IHr || apply IHl); try congruence; lia.
Qed.

Lemma sibs_set_same t p y : sibs (set t p y) p = sibs t p.
Proof.
  revert p; induction t as [z|l IHl r IHr]; intros [|b p]; simpl; auto.
  destruct b; simpl; f_equal; auto.
Qed.

Lemma sibs_set_diverge l r p q y b :
  sibs (set (Node l r) (b :: q) y) (negb b :: p) =
  root (set (if b then r else l) q y) :: sibs (if b then l else r) p.
Proof. destruct b; simpl; reflexivity. Qed.

Lemma sibs_set_shared l r p q y b :
  sibs (set (Node l r) (b :: q) y) (b :: p) =
  root (if b then l else r) :: sibs (set (if b then r else l) q y) p.
Proof. destruct b; simpl; reflexivity. Qed.

(* the depth at which two positions part; Go's mergeHeight of two leaf indices is the height of the tree minus this *)
Fixpoint common {A} (eqb : A -> A -> bool) (p q : list A) : nat :=
  match p, q with a :: p, b :: q => if eqb a b then S (common eqb p q) else 0 | _, _ => 0 end.

Lemma common_le (p q : list bool) : common Bool.eqb p q <= length p /\ common Bool.eqb p q <= length q.
Proof. revert q. induction p as [|a p IH]; intros [|b q]; simpl; try lia. destruct (Bool.eqb a b); simpl; [destruct (IH q); lia | lia]. Qed.
Lemma common_full (p q : list bool) : length p = length q -> common Bool.eqb p q = length p -> p = q.
Proof.
  revert q. induction p as [|a p IH]; intros [|b q] L C; simpl in *; try discriminate; [reflexivity|].
  destruct (Bool.eqb a b) eqn:E; [|discriminate]. apply Bool.eqb_prop in E. subst. f_equal. apply IH; lia.
Qed.

Lemma sibs_common t : forall p q, firstn (common Bool.eqb p q) (sibs t p) = firstn (common Bool.eqb p q) (sibs t q).
Proof.
  induction t as [z|l IHl r IHr]; intros [|a p] [|b q]; cbn [common sibs firstn]; try reflexivity.
  destruct (Bool.eqb a b) eqn:E; [|reflexivity]. apply Bool.eqb_prop in E. subst b. cbn [firstn]. f_equal. destruct a; [apply IHr | apply IHl].
Qed.

Lemma sibs_set_below t : forall p q y k, common Bool.eqb p q < k -> skipn k (sibs (set t q y) p) = skipn k (sibs t p).
Proof.
  induction t as [z|l IHl r IHr]; intros [|a p] [|b q] y [|k] Hc; cbn [common set sibs skipn] in *; try reflexivity; try lia.
  - destruct b; reflexivity.
  - destruct a, b; cbn [Bool.eqb sibs skipn] in *; try reflexivity; [apply IHr | apply IHl]; lia.
Qed.

(* the statement behind updateProof: after updating position q, the proof of position p is unchanged below the merge
   point and equal to q's new proof above it; the element at the merge point itself is given by UpdateProofs.sibs_patch *)
Theorem update_proof_spec t p q y : perfect t -> length p = height t -> length q = height t -> p <> q ->
  let k := common Bool.eqb p q in
  let t' := set t q y in
  firstn k (sibs t' p) = firstn k (sibs t' q) /\
  skipn (S k) (sibs t' p) = skipn (S k) (sibs t p).
Proof. intros _ _ _ _. split; [apply sibs_common | apply sibs_set_below; lia]. Qed.

End Tree.
