(* Diff proofs: the tree hashes BuildDiffProof takes from the old list are those of the list after the actions at the new
   indices (gaps_same); so VerifyDiffProof accepts BuildDiffProof's output with the plain roots of the old and the new list
   (diff_complete), and whatever new root it accepts is the plain root of the new list (diff_sound). *)
From Coq Require Import List NArith Arith Bool Lia Sorted.
From Sia Require Import Prim.Tok Merkle.Tree Merkle.Forest Merkle.Rhp Merkle.RhpProofs Merkle.RhpRoot.
From Sia Require Import Merkle.RgBits Merkle.RgLoops Merkle.RgFinal Merkle.RgSound Merkle.RgGap Merkle.RgMulti.
From Sia Require Import Merkle.RgDiff1 Merkle.RgDiff2.
Import ListNotations.
Local Open Scope N_scope.

Fixpoint seqN (lo : N) (k : nat) : list N := match k with O => [] | S k' => lo :: seqN (lo + 1) k' end.
Lemma seqN_snoc k : forall lo, seqN lo (S k) = seqN lo k ++ [lo + N.of_nat k].
Proof.
  induction k as [|k IH]; intros lo; [cbn; f_equal; lia|]. change (seqN lo (S (S k))) with (lo :: seqN (lo + 1) (S k)). rewrite IH.
  cbn [seqN app]. do 2 f_equal. f_equal. lia.
Qed.
Lemma below_seq C : SS C -> forall k lo, (forall x, lo <= x -> x < lo + N.of_nat k -> In x C) -> below (lo + N.of_nat k) C = below lo C ++ seqN lo k.
Proof.
  intros HC. induction k as [|k IH]; intros lo Hin.
  - cbn [seqN]. rewrite app_nil_r. f_equal. lia.
  - replace (lo + N.of_nat (S k)) with ((lo + N.of_nat k) + 1) by lia. rewrite (below_succ C HC) by (apply Hin; lia).
    rewrite IH by (intros x X1 X2; apply Hin; lia). rewrite seqN_snoc, app_assoc. reflexivity.
Qed.

Section Gaps.
Variable H : bytes -> bytes.
Notation mroot := (Rhp.mroot H).
Notation range_subtrees := (Rhp.range_subtrees H).
Notation build_gaps := (Rhp.build_gaps H).

(* the gap builder with the end of the last gap made explicit *)
Fixpoint gapsl (L : list hash) (start : N) (idxs : list N) (lim : N) : list hash :=
  match idxs with
  | [] => range_subtrees FUEL L start lim
  | e :: r => range_subtrees FUEL L start e ++ gapsl L (e + 1) r lim
  end.
Lemma build_gaps_gapsl L idxs : forall start, build_gaps FUEL L start idxs = gapsl L start idxs (N.of_nat (length L)).
Proof. induction idxs as [|e r IH]; intros start; cbn [Rhp.build_gaps gapsl]; [reflexivity | rewrite IH; reflexivity]. Qed.

Lemma nth_skipn' {A} (l : list A) d : forall i p, nth p (skipn i l) d = nth (i + p) l d.
Proof. induction l as [|y l IH]; intros i p; [rewrite skipn_nil; destruct p, i; reflexivity|]. destruct i; [reflexivity|]. cbn [skipn Nat.add nth]. apply IH. Qed.
Lemma slice_ext (L L' : list hash) i s : i + s <= N.of_nat (length L) -> i + s <= N.of_nat (length L') ->
  (forall x, i <= x -> x < i + s -> nth (N.to_nat x) L zero_hash = nth (N.to_nat x) L' zero_hash) -> slice L i s = slice L' i s.
Proof.
  intros B B' E. apply (nth_ext _ _ zero_hash zero_hash); [rewrite !slice_length by assumption; reflexivity|].
  intros p Lp. rewrite slice_length in Lp by assumption. unfold slice. rewrite !nth_firstn_lt by exact Lp. rewrite !nth_skipn'.
  specialize (E (i + N.of_nat p) ltac:(lia) ltac:(lia)). replace (N.to_nat (i + N.of_nat p)) with (N.to_nat i + p)%nat in E by lia. exact E.
Qed.
Lemma range_ext (L L' : list hash) j : j <= N.of_nat (length L) -> j <= N.of_nat (length L') -> j < 2 ^ 64 -> forall f i,
  (forall x, i <= x -> x < j -> nth (N.to_nat x) L zero_hash = nth (N.to_nat x) L' zero_hash) -> range_subtrees f L i j = range_subtrees f L' i j.
Proof.
  intros B B' Hj. induction f as [|f IH]; intros i E; cbn [Rhp.range_subtrees]; [reflexivity|].
  destruct (N.ltb_spec i j) as [Lt|]; [|reflexivity]. cbv zeta. destruct (nss_spec i j Lt Hj) as (h & Es & _ & _ & Fit & _). rewrite Es in *.
  pose proof (pow2_pos h) as P.
  f_equal; [f_equal; apply slice_ext; [clear - Fit B; lia | clear - Fit B'; lia | intros x X1 X2; apply E; [exact X1 | clear - X2 Fit; lia]] | apply IH; intros x X1 X2; apply E; [clear - X1; lia | exact X2]].
Qed.
Lemma gapsl_ext (L L' : list hash) lim : lim <= N.of_nat (length L) -> lim <= N.of_nat (length L') -> lim < 2 ^ 64 -> forall idxs start,
  incr start idxs lim ->
  (forall x, start <= x -> x < lim -> ~ In x idxs -> nth (N.to_nat x) L zero_hash = nth (N.to_nat x) L' zero_hash) ->
  gapsl L start idxs lim = gapsl L' start idxs lim.
Proof.
  intros B B' Hl. induction idxs as [|e r IH]; intros start I E; cbn [gapsl incr] in *.
  - apply range_ext; try assumption. intros x X1 X2. apply E; [lia | lia | intros []].
  - destruct I as (I1 & I2 & I3).
    assert (R1 : range_subtrees FUEL L start e = range_subtrees FUEL L' start e).
    { apply range_ext; try lia. intros x X1 X2. apply E; [lia | lia|]. intros [<-|Hin]; [lia|]. pose proof (incr_ge _ _ _ _ I3 Hin). lia. }
    assert (R2 : gapsl L (e + 1) r lim = gapsl L' (e + 1) r lim).
    { apply IH; [exact I3|]. intros x X1 X2 Nx. apply E; [lia | lia|]. intros [<-|Hin]; [lia | contradiction]. }
    rewrite R1, R2. reflexivity.
Qed.
Lemma gapsl_seq_nil L k : forall lo, gapsl L lo (seqN lo k) (lo + N.of_nat k) = [].
Proof.
  induction k as [|k IH]; intros lo; cbn [seqN gapsl].
  - replace (lo + N.of_nat 0) with lo by lia. apply subtrees_nil. lia.
  - rewrite (subtrees_nil H L FUEL lo lo) by lia. cbn [app]. replace (lo + N.of_nat (S k)) with ((lo + 1) + N.of_nat k) by lia. apply IH.
Qed.
Lemma gapsl_tail L k lo : forall idxs start, gapsl L start (idxs ++ seqN lo k) (lo + N.of_nat k) = gapsl L start idxs lo.
Proof.
  induction idxs as [|e r IH]; intros start; cbn [app gapsl].
  - destruct k as [|k]; cbn [seqN gapsl]; [f_equal; lia|].
    replace (lo + N.of_nat (S k)) with ((lo + 1) + N.of_nat k) by lia. rewrite gapsl_seq_nil, app_nil_r. reflexivity.
  - rewrite IH. reflexivity.
Qed.
End Gaps.

Section Final.
Variable H : bytes -> bytes.
Notation mroot := (Rhp.mroot H).

Lemma build_gaps_cut (C : list N) (L : list hash) lo : SS C -> lo <= N.of_nat (length L) -> (forall x, lo <= x -> x < N.of_nat (length L) -> In x C) ->
  build_gaps H FUEL L 0 (below (N.of_nat (length L)) C) = gapsl H L 0 (below lo C) lo.
Proof.
  intros HC Hlo Hin. rewrite build_gaps_gapsl. revert Hin. replace (N.of_nat (length L)) with (lo + N.of_nat (N.to_nat (N.of_nat (length L) - lo))) by lia.
  intros Hin. rewrite (below_seq C HC) by exact Hin. apply gapsl_tail.
Qed.

(* the tree hashes built over the old list are the tree hashes of the new list at the new indices *)
Lemma gaps_same (C : list N) (ls new : list hash) : SS C -> N.of_nat (length ls) < 2 ^ 64 -> N.of_nat (length new) < 2 ^ 64 ->
  (forall i, ~ In (N.of_nat i) C -> (i < length ls)%nat -> (i < length new)%nat -> nth i new zero_hash = nth i ls zero_hash) ->
  (forall k, N.min (N.of_nat (length ls)) (N.of_nat (length new)) <= k -> k < N.max (N.of_nat (length ls)) (N.of_nat (length new)) -> In k C) ->
  build_gaps H FUEL new 0 (below (N.of_nat (length new)) C) = build_gaps H FUEL ls 0 (below (N.of_nat (length ls)) C).
Proof.
  intros HC Bn Bn' F1 F2. set (lo := N.min (N.of_nat (length ls)) (N.of_nat (length new))).
  rewrite (build_gaps_cut C new lo HC), (build_gaps_cut C ls lo HC) by (try (intros x X1 X2; apply F2); unfold lo; lia).
  apply gapsl_ext; try (unfold lo; lia); [apply below_incr; exact HC|].
  intros x X1 X2 Nx. apply F1; [rewrite N2Nat.id; intros Hin; apply Nx; apply below_In; split; [exact Hin | lia] | unfold lo in X2; lia | unfold lo in X2; lia].
Qed.

(* BuildDiffProof's output passes VerifyDiffProof with the plain roots of the old list and of the list after the actions *)
Theorem diff_complete (acts : list action) (ls ar new : list hash) :
  apply_acts acts ls ar = Some new -> N.of_nat (length ls) < 2 ^ 64 -> N.of_nat (length new) < 2 ^ 64 ->
  verify_diff_proof H acts (N.of_nat (length ls)) (fst (build_diff_proof H acts ls)) (snd (build_diff_proof H acts ls)) (mroot ls) (mroot new) ar = Some true.
Proof.
  intros EA Bn Bn'. set (C := changed_aux acts (N.of_nat (length ls)) []).
  assert (HC : SS C) by (apply changed_sorted; constructor).
  assert (Eidx : sectors_changed acts (N.of_nat (length ls)) = below (N.of_nat (length ls)) C) by reflexivity.
  destruct (diff_inv C HC acts ls ar [] new ltac:(constructor) eq_refl EA) as (nlh & nidx & M1 & M2 & E1 & E2 & Cnt & F1 & F2).
  pose proof (diff_old_complete H acts ls Bn) as Old. unfold build_diff_proof in *. cbn [fst snd] in *.
  unfold verify_diff_proof. rewrite Old. rewrite Eidx.
  fold (leaves_at ls (below (N.of_nat (length ls)) C)). rewrite leaves_at_length, Nat.eqb_refl. cbn [negb].
  unfold modify_leaves. rewrite touched_changed. fold C. rewrite M1, M2.
  match goal with |- verify_multi _ _ _ _ ?X _ = _ => replace X with (N.of_nat (length new)) by (rewrite E2, !leaves_at_length; lia) end.
  rewrite E2, E1. rewrite <- (gaps_same C ls new HC Bn Bn' F1 F2).
  apply (multi_complete H new _ Bn'). apply below_incr. exact HC.
Qed.

(* hence: whatever new root VerifyDiffProof accepts is the plain root of the list after the actions, or a collision is exhibited *)
Theorem diff_sound (acts : list action) (ls th lh ar new : list hash) (newRoot : hash) :
  apply_acts acts ls ar = Some new -> N.of_nat (length ls) < 2 ^ 64 -> N.of_nat (length new) < 2 ^ 64 ->
  verify_diff_proof H acts (N.of_nat (length ls)) th lh (mroot ls) newRoot ar = Some true ->
  (newRoot = mroot new /\ lh = snd (build_diff_proof H acts ls) /\ th = fst (build_diff_proof H acts ls)) \/ NodeCollision H.
Proof.
  intros EA Bn Bn' V. pose proof (diff_complete acts ls ar new EA Bn Bn') as Vc.
  destruct (diff_old_sound H acts ls th lh newRoot ar Bn V) as [[El Et]|Co]; [|right; exact Co].
  destruct (diff_new_determined H acts ls th lh newRoot ar Bn V) as [D1|Co]; [|right; exact Co].
  destruct (diff_new_determined H acts ls _ _ (mroot new) ar Bn Vc) as [D2|Co]; [|right; exact Co].
  left. split; [congruence | split; assumption].
Qed.
End Final.

(* rhp/v4 free-sector proofs are diff proofs for "swap the i-th freed index with the i-th sector from the end, then trim" *)
Section Free.
Variable H : bytes -> bytes.
Theorem free_complete (freed : list N) (ls new : list hash) :
  let acts := convert_free_actions freed (N.of_nat (length ls)) in
  apply_acts acts ls [] = Some new -> N.of_nat (length ls) < 2 ^ 64 -> N.of_nat (length new) < 2 ^ 64 ->
  verify_diff_proof H acts (N.of_nat (length ls)) (fst (build_diff_proof H acts ls)) (snd (build_diff_proof H acts ls)) (Rhp.mroot H ls) (Rhp.mroot H new) [] = Some true.
Proof. intros acts. apply diff_complete. Qed.
Theorem free_sound (freed : list N) (ls th lh new : list hash) (newRoot : hash) :
  let acts := convert_free_actions freed (N.of_nat (length ls)) in
  apply_acts acts ls [] = Some new -> N.of_nat (length ls) < 2 ^ 64 -> N.of_nat (length new) < 2 ^ 64 ->
  verify_diff_proof H acts (N.of_nat (length ls)) th lh (Rhp.mroot H ls) newRoot [] = Some true ->
  (newRoot = Rhp.mroot H new /\ lh = snd (build_diff_proof H acts ls) /\ th = fst (build_diff_proof H acts ls)) \/ NodeCollision H.
Proof. intros acts. apply diff_sound. Qed.
End Free.

(* the premises are satisfiable: five sectors; swap 1 and 3, trim 2, append one *)
Example apply_acts_example : apply_acts [ASwap 1 3; ATrim 2; AAppend] [[1]; [2]; [3]; [4]; [5]] [[9]] = Some [[1]; [4]; [3]; [9]].
Proof. reflexivity. Qed.
Example free_example : apply_acts (convert_free_actions [1] 4) [[1]; [2]; [3]; [4]] [] = Some [[1]; [4]; [3]].
Proof. reflexivity. Qed.
