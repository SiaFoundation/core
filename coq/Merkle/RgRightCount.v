(* The second summand of rhp/v2 rangeProofSize, popcount(^(end-1) & pathMask), counts the aligned subtrees from end to n:
   it is one for the last subtree and drops by one with every other. *)
From Coq Require Import List NArith Arith Bool Lia.
From Sia Require Import Prim.Tok Merkle.Rhp.
From Sia Require Import Merkle.RgBits Merkle.RgCount Merkle.RgXor.
Import ListNotations.
Local Open Scope N_scope.

Definition rterm (n i : N) : N := popcount (N.land (N.ldiff (Rhp.W - 1) (i - 1)) (2 ^ bitlen (N.lxor (i - 1) (n - 1)) - 1)).

Lemma rterm_le_64 n i : rterm n i <= 64.
Proof. apply popcount_le_64, mask_bound. Qed.

Lemma rterm_end n : rterm n n = 0.
Proof. unfold rterm. rewrite N.lxor_nilpotent. change (bitlen 0) with 0. rewrite N.pow_0_r. change (1 - 1) with 0. rewrite N.land_0_r. reflexivity. Qed.

Lemma pow2_add_1 t : 2 ^ (t + 1) = 2 * 2 ^ t.
Proof. rewrite N.add_1_r. apply N.pow_succ_r'. Qed.

Section Shape.
(* i = 2^t (2A + 1): e = i - 1 has t ones below a zero; e' = e + 2^t *)
Variables t A : N.
Let e := 2 ^ (t + 1) * A + 2 ^ t - 1.
Let e' := e + 2 ^ t.
Lemma e_lo : e = 2 ^ (t + 1) * A + (2 ^ t - 1) /\ 2 ^ t - 1 < 2 ^ (t + 1).
Proof. unfold e. rewrite pow2_add_1. pose proof (pow2_pos t). lia. Qed.
Lemma e_hi : e' = 2 ^ (t + 1) * A + (2 ^ (t + 1) - 1) /\ 2 ^ (t + 1) - 1 < 2 ^ (t + 1).
Proof. unfold e', e. rewrite pow2_add_1. pose proof (pow2_pos t). lia. Qed.
Lemma e_div : e / 2 ^ (t + 1) = A /\ e' / 2 ^ (t + 1) = A.
Proof. destruct e_lo as [E ?], e_hi as [E' ?]. rewrite E, E'. split; apply div_pow2_split; assumption. Qed.

(* below bit d >= t + 1, the complement of e is that of A, then a one, then t zeros; that of e' has a zero there *)
Lemma e_count d : t + 1 <= d ->
  let K := 2 ^ (d - (t + 1)) - 1 - A mod 2 ^ (d - (t + 1)) in
  popcount (2 ^ d - 1 - e mod 2 ^ d) = 1 + popcount K /\ popcount (2 ^ d - 1 - e' mod 2 ^ d) = popcount K.
Proof.
  intros Hd K. destruct e_lo as [E ?], e_hi as [E' ?]. rewrite E, E', !mask_split by assumption. fold K. clearbody K.
  rewrite N.sub_diag, N.add_0_r, popcount_pow_mul. split; [|reflexivity].
  replace (2 ^ (t + 1) * K + (2 ^ (t + 1) - 1 - (2 ^ t - 1))) with (2 ^ t * (2 * K + 1)).
  - rewrite popcount_pow_mul. apply popcount_succ_double.
  - rewrite pow2_add_1. pose proof (pow2_pos t) as P. clear - P. lia.
Qed.

(* one more aligned subtree fits strictly before the end: the term drops by one *)
Lemma rterm_step m : e' < m -> m < 2 ^ 64 ->
  popcount (N.land (N.ldiff (Rhp.W - 1) e) (2 ^ bitlen (N.lxor e m) - 1)) =
  1 + popcount (N.land (N.ldiff (Rhp.W - 1) e') (2 ^ bitlen (N.lxor e' m) - 1)).
Proof.
  intros Hm Hm64. destruct e_div as [D D'].
  (* e' and m differ above bit t, where e' and e agree *)
  assert (Hd : t + 1 < bitlen (N.lxor e' m)).
  { apply N.lt_nge. intros L%bitlen_xor_le. rewrite D' in L.
    pose proof (N.mul_succ_div_gt m (2 ^ (t + 1))) as G. rewrite <- L, N.mul_succ_r in G.
    destruct e_hi as [E _]. rewrite E in Hm. pose proof (pow2_pos (t + 1)). lia. }
  rewrite (bitlen_xor_congr e' e m (t + 1)) by (rewrite ?D, ?D'; trivial). set (d := bitlen (N.lxor e' m)) in *.
  assert (He' : e' < 2 ^ 64) by (apply N.lt_trans with m; assumption).
  assert (He : e < 2 ^ 64) by (apply N.le_lt_trans with e'; [apply N.le_add_r | exact He']).
  assert (d64 : d <= 64) by (apply bitlen_xor_le; rewrite !N.div_small by assumption; reflexivity).
  rewrite !mask_value by assumption. destruct (e_count d) as [-> ->]; [apply N.lt_le_incl, Hd | reflexivity].
Qed.

(* the last subtree (reaching or overshooting the end): exactly one hash *)
Lemma rterm_last m : e < m -> m <= e' -> t < 64 -> m < 2 ^ 64 ->
  popcount (N.land (N.ldiff (Rhp.W - 1) e) (2 ^ bitlen (N.lxor e m) - 1)) = 1.
Proof.
  intros Lo Up Ht Hm64.
  assert (B : (e < 2 ^ t * (2 * A + 1) <= m) /\ (2 ^ (t + 1) * A <= m < 2 ^ (t + 1) * N.succ A)).
  { replace (2 ^ t * (2 * A + 1)) with (2 ^ (t + 1) * A + 2 ^ t) by (rewrite pow2_add_1; ring).
    rewrite N.mul_succ_r. unfold e', e in *. rewrite pow2_add_1 in *. pose proof (pow2_pos t). lia. }
  destruct B as [[B1 B2] B3].
  assert (Ed : bitlen (N.lxor e m) = t + 1).
  { apply bitlen_xor_char.
    - rewrite (proj1 e_div). symmetry. apply div_interval, B3.
    - right. rewrite N.add_sub. intros E. apply (N.lt_irrefl (2 * A + 1)).
      apply N.le_lt_trans with (m / 2 ^ t); [apply N.div_le_lower_bound | rewrite <- E; apply N.div_lt_upper_bound];
        try (apply N.pow_nonzero; discriminate); assumption. }
  rewrite Ed, mask_value; [|apply N.lt_trans with m; assumption | rewrite N.add_1_r; apply N.le_succ_l, Ht].
  destruct (e_count (t + 1) (N.le_refl _)) as [-> _]. rewrite N.sub_diag. reflexivity.
Qed.
End Shape.

Lemma rterm_next n i : 0 < i < n -> n < 2 ^ 64 -> rterm n i = 1 + (if n <=? i + 2 ^ ctz i then 0 else rterm n (i + 2 ^ ctz i)).
Proof.
  intros [Hi Hn] B. destruct (ctz_spec i Hi) as (A & Ei). pose proof (ctz_lt i 64 ltac:(lia)) as T64. set (t := ctz i) in *. pose proof (pow2_pos t) as Pt.
  assert (Ee : i - 1 = 2 ^ (t + 1) * A + 2 ^ t - 1) by (rewrite Ei at 1; rewrite (N.add_1_r t), N.pow_succ_r'; f_equal; ring).
  unfold rterm. rewrite Ee. destruct (N.leb_spec n (i + 2 ^ t)) as [Last|More].
  - rewrite N.add_0_r. apply (rterm_last t A (n - 1)); rewrite <- ?Ee; clear - Hi Hn B Last T64; lia.
  - rewrite (rterm_step t A (n - 1)) by (rewrite <- ?Ee; clear - Hi B More; lia). rewrite <- Ee. replace (i + 2 ^ t - 1) with (i - 1 + 2 ^ t) by (clear - Hi; lia). reflexivity.
Qed.
