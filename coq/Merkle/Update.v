(* The recursion of consensus/merkle.go updateLeaves.recompute on one perfect tree. *)
From Coq Require Import List Arith Lia Bool Permutation.
Import ListNotations.
From Sia Require Import Merkle.Tree.

Lemma Forall_filter_in {A} (P : A -> Prop) (g : A -> bool) ls :
  (forall v, In v ls -> g v = true -> P v) -> Forall P (filter g ls).
Proof. intros Hg. apply Forall_forall. intros v Hv. apply filter_In in Hv. now apply Hg. Qed.

Lemma in_filter_hd {A} (f : A -> bool) (ls : list A) v rest : filter f ls = v :: rest -> In v ls /\ f v = true.
Proof. intros E. assert (H : In v (filter f ls)) by (rewrite E; simpl; auto). now apply filter_In in H. Qed.

Lemma NoDup_map_filter {A B} (g : A -> B) (f : A -> bool) l : NoDup (map g l) -> NoDup (map g (filter f l)).
Proof.
  induction l as [|a l IH]; intros Hn; [exact Hn|]. cbn [map filter] in *. inversion Hn as [|? ? Hnin Hn']; subst.
  destruct (f a); [|auto]. cbn [map]. constructor; [|auto].
  intros Hin. apply Hnin. apply in_map_iff in Hin. destruct Hin as (v & E & Hv). apply filter_In in Hv.
  apply in_map_iff. exists v. tauto.
Qed.

Section Update.
Variable hash : Type.
Variable node : hash -> hash -> hash.
Notation ptree := (ptree hash).
Notation root := (root hash node).
Notation sibs := (sibs hash node).
Notation set := (set hash).
Notation perfect := (perfect hash).
Notation height := (height hash).

(* an updated leaf: position (MSB first), new leaf hash, current proof (top-down) *)
Record uleaf := { pos : list bool; newh : hash; prf : list hash }.

Definition tl_leaf (u : uleaf) : uleaf := {| pos := tl (pos u); newh := newh u; prf := tl (prf u) |}.
Definition goes_right (u : uleaf) : bool := match pos u with b :: _ => b | [] => false end.
Definition with_top (s : hash) (b : bool) (u : uleaf) : uleaf :=
  {| pos := b :: pos u; newh := newh u; prf := s :: prf u |}.

Definition dflt (ls : list uleaf) (d : hash) : hash :=
  match ls with u :: _ => match prf u with s :: _ => s | [] => d end | [] => d end.

(* returns new subtree root and the leaves with proofs rewritten for this subtree *)
Fixpoint recompute (h : nat) (d : hash) (ls : list uleaf) : hash * list uleaf :=
  match h with
  | O => (match ls with u :: _ => newh u | [] => d end, ls)
  | S h' =>
    let left := filter (fun u => negb (goes_right u)) ls in
    let right := filter goes_right ls in
    let '(lroot, left') :=
      match left with
      | [] => (dflt right d, [])
      | _ => recompute h' d (map tl_leaf left)
      end in
    let '(rroot, right') :=
      match right with
      | [] => (dflt left d, [])
      | _ => recompute h' d (map tl_leaf right)
      end in
    (node lroot rroot, map (with_top rroot false) left' ++ map (with_top lroot true) right')
  end.

Definition apply_updates (t : ptree) (ls : list uleaf) : ptree :=
  fold_left (fun t u => set t (pos u) (newh u)) ls t.

Definition valid_old (t : ptree) (u : uleaf) : Prop :=
  length (pos u) = height t /\ prf u = sibs t (pos u).

(* u carries the proof and the hash its position has in t *)
Definition current (t : ptree) (u : uleaf) : Prop := prf u = sibs t (pos u) /\ get hash t (pos u) = Some (newh u).

Lemma apply_updates_height t ls : height (apply_updates t ls) = height t.
Proof. revert t; induction ls as [|u ls IH]; intros t; simpl; auto. rewrite IH. apply set_height. Qed.

Lemma apply_updates_perfect t ls : perfect t -> perfect (apply_updates t ls).
Proof. revert t; induction ls as [|u ls IH]; intros t H; simpl; auto. apply IH. now apply set_perfect. Qed.

Definition on_side (b : bool) (u : uleaf) : bool := if b then goes_right u else negb (goes_right u).
Notation sub b ls := (map tl_leaf (filter (on_side b) ls)).
Notation keys ls := (map (fun u => (pos u, newh u)) ls).

Lemma on_side_iff b u : on_side b u = true <-> goes_right u = b.
Proof. unfold on_side. destruct b, (goes_right u); cbn; intuition congruence. Qed.

Lemma pos_side u : pos u <> [] -> pos u = goes_right u :: pos (tl_leaf u).
Proof. destruct u as [[|b p] y pr]; [contradiction | reflexivity]. Qed.

Lemma valid_old_side l r u : height l = height r -> valid_old (Node hash l r) u ->
  pos u <> [] /\ valid_old (if goes_right u then r else l) (tl_leaf u) /\
  prf u = root (if goes_right u then l else r) :: prf (tl_leaf u).
Proof.
  intros Hh [Hl Hp]. destruct u as [p y pr]. simpl in *. destruct p as [|b p]; [discriminate|].
  unfold goes_right, tl_leaf, valid_old. simpl in *. subst pr.
  split; [discriminate|]. destruct b; simpl; repeat split; auto; lia.
Qed.

Lemma valid_old_nonnil l r ls : Forall (valid_old (Node hash l r)) ls -> Forall (fun u => pos u <> []) ls.
Proof. apply Forall_impl. intros u [Hl _] E. rewrite E in Hl. discriminate. Qed.

Lemma apply_updates_node l r ls : Forall (fun u => pos u <> []) ls ->
  apply_updates (Node hash l r) ls = Node hash (apply_updates l (sub false ls)) (apply_updates r (sub true ls)).
Proof.
  revert l r. induction ls as [|u ls IH]; intros l r H; simpl; auto.
  inversion H as [|? ? Hu Hls]; subst.
  destruct u as [p y pr]. destruct p as [|b p]; [contradiction|].
  unfold on_side, goes_right at 1 3. simpl pos. destruct b; simpl; rewrite IH by assumption; reflexivity.
Qed.

Lemma sub_valid l r (b : bool) ls : height l = height r -> Forall (valid_old (Node hash l r)) ls ->
  Forall (valid_old (if b then r else l)) (sub b ls).
Proof.
  intros Hh Hv. apply Forall_map, Forall_filter_in. intros v Hin Hs. apply on_side_iff in Hs. rewrite <- Hs.
  apply valid_old_side; [exact Hh|]. exact (proj1 (Forall_forall _ _) Hv v Hin).
Qed.

(* on one side every position starts with the same bit, so the tails stay distinct *)
Lemma sub_nodup b ls : Forall (fun u => pos u <> []) ls -> NoDup (map pos ls) -> NoDup (map pos (sub b ls)).
Proof.
  intros Hne Hnd. apply (NoDup_map_inv (cons b)). rewrite !map_map.
  rewrite (map_ext_in _ pos); [apply NoDup_map_filter; exact Hnd|].
  intros u Hu. apply filter_In in Hu. destruct Hu as [Hin Hs]. apply on_side_iff in Hs.
  rewrite (pos_side u (proj1 (Forall_forall _ _) Hne u Hin)), Hs. reflexivity.
Qed.

Lemma sub_perm (ls : list uleaf) : Permutation (filter (on_side false) ls ++ filter (on_side true) ls) ls.
Proof.
  induction ls as [|u ls IH]; [constructor|]. cbn [filter on_side]. destruct (goes_right u); cbn [negb].
  - apply Permutation_sym, Permutation_cons_app, Permutation_sym, IH.
  - cbn [app]. constructor. exact IH.
Qed.

Lemma sub_nonempty b ls : ls <> [] -> filter (on_side b) ls = [] -> filter (on_side (negb b)) ls <> [].
Proof.
  destruct ls as [|w ls]; [contradiction|]. intros _. cbn [filter]. unfold on_side.
  destruct b, (goes_right w); cbn; discriminate.
Qed.

(* Go: a side without updated leaves takes its root from the top of the first proof on the other side *)
Definition side (h : nat) (d : hash) (own other : list uleaf) : hash * list uleaf :=
  match own with [] => (dflt other d, []) | _ => recompute h d (map tl_leaf own) end.

Lemma recompute_S h d ls :
  let L := filter (on_side false) ls in
  let R := filter (on_side true) ls in
  recompute (S h) d ls =
  (node (fst (side h d L R)) (fst (side h d R L)),
   map (with_top (fst (side h d R L)) false) (snd (side h d L R)) ++
   map (with_top (fst (side h d L R)) true) (snd (side h d R L))).
Proof.
  cbv zeta. unfold side. cbn [recompute].
  change (filter goes_right ls) with (filter (on_side true) ls).
  change (filter (fun u => negb (goes_right u)) ls) with (filter (on_side false) ls).
  destruct (match filter (on_side false) ls with [] => _ | _ => _ end), (match filter (on_side true) ls with [] => _ | _ => _ end).
  reflexivity.
Qed.

(* what recompute owes for the updates [ls] of [t]: the new root, and every updated leaf with its proof in the updated
   tree, where it holds its new hash *)
Definition recomputed (t : ptree) (ls : list uleaf) (res : hash * list uleaf) : Prop :=
  let t' := apply_updates t ls in
  fst res = root t' /\ Forall (current t') (snd res) /\
  Permutation (keys (snd res)) (keys ls).

Lemma leaf_updates x ls : ls <> [] -> Forall (valid_old (Leaf hash x)) ls -> NoDup (map pos ls) ->
  exists y, ls = [{| pos := []; newh := y; prf := [] |}].
Proof.
  intros Hne Hv Hnd. destruct ls as [|[p y pr] ls]; [contradiction|].
  inversion Hv as [|? ? [Hl Hp] Hv']; subst. cbn in Hl, Hp. apply length_zero_iff_nil in Hl. subst p pr.
  destruct ls as [|[q z qr] ls]; [eauto|]. exfalso.
  inversion Hv' as [|? ? [Hq _] _]; subst. cbn in Hq. apply length_zero_iff_nil in Hq. subst q.
  inversion Hnd as [|? ? Hnin _]; subst. apply Hnin. left. reflexivity.
Qed.

Lemma side_recomputed d l r ls (b : bool) : let s := if b then r else l in
  (forall ls', ls' <> [] -> Forall (valid_old s) ls' -> NoDup (map pos ls') -> recomputed s ls' (recompute (height s) d ls')) ->
  height l = height r -> ls <> [] -> Forall (valid_old (Node hash l r)) ls -> NoDup (map pos ls) ->
  recomputed s (sub b ls) (side (height s) d (filter (on_side b) ls) (filter (on_side (negb b)) ls)).
Proof.
  intros s IH Hh Hne Hv Hnd. unfold side. destruct (filter (on_side b) ls) as [|u own] eqn:Eo.
  - (* the first leaf of the other side has the root of [s] on top of its proof *)
    destruct (filter (on_side (negb b)) ls) as [|v other] eqn:Et; [destruct (sub_nonempty b ls Hne Eo Et)|].
    destruct (in_filter_hd _ _ _ _ Et) as [Hin Hs]. apply on_side_iff in Hs.
    destruct (valid_old_side l r v Hh (proj1 (Forall_forall _ _) Hv v Hin)) as (_ & _ & Hp).
    unfold dflt. rewrite Hp, Hs. subst s. destruct b; repeat split; constructor.
  - rewrite <- Eo. apply IH.
    + rewrite Eo. discriminate.
    + apply sub_valid; assumption.
    + apply sub_nodup; [eapply valid_old_nonnil; exact Hv | exact Hnd].
Qed.

Lemma with_top_current l r (b : bool) s xs : s = root (if b then l else r) ->
  Forall (current (if b then r else l)) xs -> Forall (current (Node hash l r)) (map (with_top s b) xs).
Proof. intros -> F. apply Forall_map. eapply Forall_impl; [|exact F]. intros u [E G]. split; cbn; [rewrite E; reflexivity | exact G]. Qed.

Lemma with_top_keys b s xs ls : Forall (fun u => pos u <> []) ls ->
  Permutation (keys xs) (keys (sub b ls)) ->
  Permutation (keys (map (with_top s b) xs)) (keys (filter (on_side b) ls)).
Proof.
  intros Hne P. apply (Permutation_map (fun k => (b :: fst k, snd k))) in P. rewrite !map_map in *. cbn [fst snd with_top pos newh] in *.
  rewrite P. erewrite map_ext_in; [reflexivity|]. intros u Hu. apply filter_In in Hu. destruct Hu as [Hin Hs]. apply on_side_iff in Hs.
  rewrite (pos_side u (proj1 (Forall_forall _ _) Hne u Hin)), Hs. reflexivity.
Qed.

Theorem recompute_recomputed d t : forall ls, perfect t -> ls <> [] -> Forall (valid_old t) ls -> NoDup (map pos ls) ->
  recomputed t ls (recompute (height t) d ls).
Proof.
  induction t as [x|l IHl r IHr]; intros ls Hp Hne Hv Hnd.
  - destruct (leaf_updates x ls Hne Hv Hnd) as (y & ->). repeat split; repeat constructor.
  - destruct Hp as (Hl & Hr & Hh). pose proof (valid_old_nonnil l r ls Hv) as Hnn.
    destruct (side_recomputed d l r ls false (fun ls' => IHl ls' Hl) Hh Hne Hv Hnd) as (EL & FL & PL).
    destruct (side_recomputed d l r ls true (fun ls' => IHr ls' Hr) Hh Hne Hv Hnd) as (ER & FR & PR).
    cbn [negb] in *. rewrite <- Hh in *. unfold recomputed. cbn [height]. rewrite recompute_S, apply_updates_node by exact Hnn.
    cbn [fst snd root]. split; [rewrite EL, ER; reflexivity|]. split.
    + apply Forall_app. split; apply with_top_current; assumption.
    + eapply Permutation_trans; [|apply Permutation_map, sub_perm].
      rewrite !map_app. apply Permutation_app; apply with_top_keys; assumption.
Qed.

Theorem recompute_root t d ls : perfect t -> ls <> [] -> Forall (valid_old t) ls -> NoDup (map pos ls) ->
  fst (recompute (height t) d ls) = root (apply_updates t ls).
Proof. intros Hp Hne Hv Hnd. apply (recompute_recomputed d t ls Hp Hne Hv Hnd). Qed.
End Update.
