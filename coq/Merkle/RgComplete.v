(* RHP sector-range proofs: completeness for every list of at most 2^30 roots and every range. *)
From Coq Require Import List NArith Arith Bool Lia.
From Sia Require Import Prim.Tok Merkle.Tree Merkle.Forest Merkle.Rhp Merkle.RhpProofs Merkle.RhpRoot.
From Sia Require Import Merkle.RgBits Merkle.RgLoops Merkle.RgCount Merkle.RgSound Merkle.RgGap Merkle.RgFinal Merkle.RgLeft Merkle.RgRightCount.
Import ListNotations.
Local Open Scope N_scope.

Section RComplete.
Variable H : bytes -> bytes.
Notation node := (Rhp.node H).
Notation mroot := (Rhp.mroot H).
Notation build_range := (Rhp.build_range H).
Notation insert_range := (Rhp.insert_range H).

Lemma right_count (ls : list hash) : 0 < N.of_nat (length ls) <= 2 ^ 30 ->
  forall k i fb, (N.to_nat (N.of_nat (length ls) - i) <= k)%nat -> 0 < i -> i <= N.of_nat (length ls) -> (N.to_nat (N.of_nat (length ls) - i) <= fb)%nat ->
    N.of_nat (length (build_range fb ls (N.of_nat (length ls)) i (2 ^ 31 - 1))) = rterm (N.of_nat (length ls)) i.
Proof.
  intros Hn. set (n := N.of_nat (length ls)) in *. induction k as [|k IH]; intros i fb Hk Hi0 Hi Hfb;
    (destruct (N.eq_dec i n) as [->|Ne]; [rewrite rterm_end, build_range_nil by lia; reflexivity|]); [lia|].
  destruct (nss_right i n Hi0 ltac:(lia) ltac:(lia)) as (Eb & _). pose proof (pow2_pos (ctz i)) as P.
  destruct fb as [|fb]; [lia|]. cbn [Rhp.build_range]. rewrite (proj2 (N.ltb_lt i _)), (proj2 (N.ltb_lt i n)) by lia.
  cbn [andb]. cbv zeta. rewrite Eb. cbn [length]. rewrite Nat2N.inj_succ. rewrite (rterm_next n i) by lia. rewrite <- N.add_1_l. f_equal.
  destruct (N.leb_spec n (i + 2 ^ ctz i)) as [Last|More].
  - rewrite build_range_nil; [reflexivity|]. right. destruct (N.ltb_spec n (i + 2 ^ ctz i)); lia.
  - rewrite (proj2 (N.ltb_ge _ _)) by (clear - More; lia). apply IH; clear - Hk Hfb Hi0 P More; lia.
Qed.

(* the right-hand part of the proof has at most 64 hashes, so the builder's loop needs no more fuel than that; with fuel
   for every leaf, the inductions above apply *)
Lemma right_fuel (ls : list hash) i f : 0 < N.of_nat (length ls) <= 2 ^ 30 -> 0 < i -> i <= N.of_nat (length ls) -> (64 <= f)%nat ->
  build_range f ls (N.of_nat (length ls)) i (2 ^ 31 - 1) = build_range (Nat.max f (length ls)) ls (N.of_nat (length ls)) i (2 ^ 31 - 1).
Proof.
  intros Hn Hi0 Hi Hf. apply build_range_fuel; [lia|]. pose proof (rterm_le_64 (N.of_nat (length ls)) i).
  pose proof (right_count ls Hn (length ls) i (Nat.max f (length ls))). lia.
Qed.

(* the verifier's run on the builder's proof and the covered roots: the proof has the expected length, the first loop leaves
   the right-hand part, the last loop consumes it, and the root is the plain root *)
Lemma honest_run (ls : list hash) start end_ : 0 < N.of_nat (length ls) <= 2 ^ 30 -> start < end_ -> end_ <= N.of_nat (length ls) ->
  N.of_nat (length (build_range_proof H ls start end_)) = range_proof_size (N.of_nat (length ls)) start end_ /\
  exists accL pR accR, insert_range FUEL [] (build_range_proof H ls start end_) 0 start = (accL, pR) /\
    insert_range FUEL (fold_left (fun a h => insert_node H h 0 a) (slice ls start (end_ - start)) accL) pR end_ (Rhp.W - 1) = (accR, []) /\
    pa_root H accR = mroot ls.
Proof.
  intros Hn Hse Hen. assert (F64 : (64 <= FUEL)%nat) by (unfold FUEL; lia).
  unfold build_range_proof. destruct (N.eqb_spec (N.of_nat (length ls)) 0) as [Z|_]; [clear - Z Hn; lia|].
  assert (E0 : 0 < end_) by (clear - Hse; lia). assert (S64 : start < 2 ^ 64) by (clear - Hn Hse Hen; lia).
  (* the left part is the gap [0, start) *)
  rewrite <- (subtrees_build H ls start), (right_fuel ls end_ FUEL Hn E0 Hen F64) by (clear - Hn Hse Hen; lia). set (fR := Nat.max FUEL (length ls)).
  pose proof (right_count ls Hn (length ls) end_ fR ltac:(clear; lia) E0 Hen ltac:(clear; lia)) as CR. pose proof (rterm_le_64 (N.of_nat (length ls)) end_) as R64.
  set (n := N.of_nat (length ls)) in *. set (pR := build_range fR ls n end_ (2 ^ 31 - 1)) in *.
  split; [rewrite app_length, Nat2N.inj_add, gaps_length, (gaps_left0 start FUEL S64 F64), CR; reflexivity|].
  destruct (gap_sync H ls 0 start [] pR (N.le_0_l _) ltac:(clear - Hse Hen; lia) ltac:(clear - Hn; lia) (repr_nil _ _)) as (accL & IL & RL).
  set (accM := fold_left (fun a h => insert_node H h 0 a) (slice ls start (end_ - start)) accL).
  assert (RM : Repr hash node (firstn (N.to_nat end_) ls) accM).
  { replace end_ with (start + (end_ - start)) at 1 by (clear - Hse; lia). rewrite <- firstn_slice. apply acc_digits_repr. exact RL. }
  destruct (right_sync H ls Hn (length ls) end_ accM fR FUEL) as (accR & IR & RR);
    [clear; lia | exact E0 | exact Hen | exact RM | clear; lia | fold n pR; unfold FUEL; clear - CR R64; lia |].
  exists accL, pR, accR. split; [exact IL|]. split; [exact IR | exact RR].
Qed.

(* completeness: for every list of at most 2^30 roots and every non-empty range, the proof BuildSectorRangeProof produces is
   accepted by VerifySectorRangeProof together with the covered roots, against the plainly defined root *)
Theorem range_proof_complete (ls : list hash) start end_ :
  let n := N.of_nat (length ls) in
  0 < n <= 2 ^ 30 -> start < end_ -> end_ <= n ->
  verify_range_proof H (build_range_proof H ls start end_) (slice ls start (end_ - start)) start end_ n (mroot ls) = true.
Proof.
  intros n Hn Hse Hen. destruct (honest_run ls start end_ Hn Hse Hen) as (Len & accL & pR & accR & IL & IR & RR).
  unfold verify_range_proof. fold n in Len |- *. destruct (N.eqb_spec n 0); [lia|].
  rewrite Len, N.eqb_refl, IL, IR, RR. apply hash_eqb_refl.
Qed.
End RComplete.
