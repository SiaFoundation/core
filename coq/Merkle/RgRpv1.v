(* Inserting the root of an aligned perfect subtree is the same as inserting its leaves one by one -- for any accumulator
   contents, honest or not, whose digits below the subtree's height are empty (lowfree): a statement about the shape of
   the digit list only. *)
From Coq Require Import List NArith Arith Bool Lia.
From Sia Require Import Prim.Tok Merkle.Tree Merkle.Forest Merkle.Rhp Merkle.RhpProofs Merkle.RhpRoot Merkle.RgAppend.
Import ListNotations.
Local Open Scope N_scope.

Lemma pow2_list_ind (P : nat -> list hash -> Prop) :
  (forall x, P 0%nat [x]) ->
  (forall a L1 L2, length L1 = (2 ^ a)%nat -> length L2 = (2 ^ a)%nat -> P a L1 -> P a L2 -> P (S a) (L1 ++ L2)) ->
  forall a L, length L = (2 ^ a)%nat -> P a L.
Proof.
  intros P0 PS. induction a as [|a IH]; intros L Ll.
  - destruct L as [|x [|y r]]; cbn in Ll; try lia. apply P0.
  - rewrite Nat.pow_succ_r' in Ll. rewrite <- (firstn_skipn (2 ^ a) L).
    apply PS; try apply IH; rewrite ?firstn_length, ?skipn_length; lia.
Qed.

Lemma perfect_of_list : forall h (l : list hash), length l = (2 ^ h)%nat -> exists t, perfect hash t /\ height hash t = h /\ leaves hash t = l.
Proof.
  apply pow2_list_ind.
  - intros x. exists (Leaf hash x). repeat split.
  - intros a L1 L2 _ _ (t1 & P1 & Eh1 & <-) (t2 & P2 & Eh2 & <-). exists (Node hash t1 t2). cbn. repeat split; auto; lia.
Qed.

Section Shape.
Variable H : bytes -> bytes.
Notation node := (Rhp.node H).
Notation mroot := (Rhp.mroot H).
Notation carry := (Rhp.carry H).
Notation ins := (Rhp.insert_node H).
Notation ins0 := (fun a h => Rhp.insert_node H h 0 a).

Fixpoint lowfree (h : nat) (ds : pacc) : Prop :=
  match h with O => True | S k => match ds with [] => True | d :: r => d = None /\ lowfree k r end end.

Lemma lowfree_ins h : forall ds x, lowfree h ds -> lowfree h (ins x h ds).
Proof.
  induction h as [|h IH]; intros ds x L; [exact I|]. destruct ds as [|d r]; cbn [Rhp.insert_node lowfree] in *.
  - split; [reflexivity | apply IH; destruct h; exact I].
  - destruct L as [-> L]. split; [reflexivity | apply IH; exact L].
Qed.
Lemma lowfree_le h k ds : (k <= h)%nat -> lowfree h ds -> lowfree k ds.
Proof.
  revert k ds. induction h as [|h IH]; intros k ds Le L; [replace k with 0%nat by lia; exact I|].
  destruct k as [|k]; [exact I|]. destruct ds as [|d r]; [exact I|]. cbn [lowfree] in *. destruct L as [E L]. split; [exact E | apply IH; [lia | exact L]].
Qed.
Lemma lowfree_nil h : lowfree h [].
Proof. destruct h; exact I. Qed.

Lemma ins_twice h : forall ds x y, lowfree (S h) ds -> ins y h (ins x h ds) = ins (node x y) (S h) ds.
Proof.
  induction h as [|h IH]; intros ds x y L.
  - destruct ds as [|d r]; cbn [Rhp.insert_node Rhp.carry]; [reflexivity|]. cbn [lowfree] in L. destruct L as [-> _]. reflexivity.
  - destruct ds as [|d r].
    + cbn [Rhp.insert_node]. f_equal. rewrite (IH [] x y (lowfree_nil _)). reflexivity.
    + cbn [lowfree] in L. destruct L as [-> L]. cbn [Rhp.insert_node]. f_equal. rewrite (IH r x y L). reflexivity.
Qed.

Lemma ins_perfect t : forall ds, perfect hash t -> lowfree (height hash t) ds ->
  fold_left ins0 (leaves hash t) ds = ins (root hash node t) (height hash t) ds.
Proof.
  induction t as [x|l IHl r IHr]; intros ds P L; cbn [leaves height root fold_left] in *; [reflexivity|].
  destruct P as (Pl & Pr & Eh). rewrite fold_left_app.
  assert (Ll : lowfree (height hash l) ds) by (apply (lowfree_le (S (height hash l)) (height hash l) ds); [lia | exact L]).
  rewrite (IHl ds Pl Ll).
  rewrite (IHr _ Pr ltac:(rewrite <- Eh; apply lowfree_ins; exact Ll)).
  rewrite <- Eh. apply ins_twice. exact L.
Qed.

Lemma dval_lowfree h : forall (ds : pacc) q, dval ds = q * 2 ^ N.of_nat h -> lowfree h ds.
Proof using H.
  induction h as [|h IH]; intros ds q E; [exact I|]. destruct ds as [|d r]; [exact I|]. cbn [lowfree dval] in *.
  replace (N.of_nat (S h)) with (N.of_nat h + 1) in E by lia. rewrite N.pow_add_r, N.pow_1_r in E.
  destruct d as [t|].
  - exfalso. assert (1 + 2 * dval r = 2 * (q * 2 ^ N.of_nat h)) by lia. lia.
  - split; [reflexivity|]. apply (IH r q). lia.
Qed.
Lemma dval_carry x : forall ds : pacc, dval (carry x ds) = dval ds + 1.
Proof. intros ds. revert x. induction ds as [|[t|] r IH]; intros x; cbn [Rhp.carry dval]; [lia | rewrite IH; lia | lia]. Qed.
Lemma dval_fold l : forall ds : pacc, dval (fold_left ins0 l ds) = dval ds + N.of_nat (length l).
Proof. induction l as [|x l IH]; intros ds; cbn [fold_left length]; [lia|]. rewrite IH. cbn [Rhp.insert_node]. rewrite dval_carry. lia. Qed.
Lemma dval_ins h : forall (ds : pacc) x, lowfree h ds -> dval (ins x h ds) = dval ds + 2 ^ N.of_nat h.
Proof.
  induction h as [|h IH]; intros ds x L; [cbn [Rhp.insert_node]; rewrite dval_carry; cbn; lia|].
  replace (N.of_nat (S h)) with (N.of_nat h + 1) by lia. rewrite N.pow_add_r, N.pow_1_r.
  destruct ds as [|d r]; cbn [Rhp.insert_node dval lowfree] in *.
  - rewrite (IH [] x (lowfree_nil _)). cbn [dval]. lia.
  - destruct L as [-> L]. rewrite (IH r x L). lia.
Qed.

Lemma ins_block h (l : list hash) ds : length l = (2 ^ h)%nat -> lowfree h ds -> fold_left ins0 l ds = ins (mroot l) h ds.
Proof.
  intros Ll L. destruct (perfect_of_list h l Ll) as (t & Pt & Ht & Lt). rewrite <- Lt. rewrite (perfect_root H t Pt). rewrite <- Ht in L |- *.
  apply ins_perfect; assumption.
Qed.
End Shape.
