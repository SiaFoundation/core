(* Multiproof codec: the leaf-count inference recovers every proof length; the individual proofs of the lossless theorem ([proof_in]) verify against the root of their tree. *)
From Coq Require Import List NArith Lia Bool PeanoNat.
From Sia Require Import Merkle.Pow2 Merkle.Tree Merkle.Multi Merkle.MultiProofs.
Import ListNotations.
Open Scope N_scope.

(* leaf idx lives in the tree of height h of an accumulator with NL leaves *)
Definition in_tree (NL idx : N) (h : nat) : Prop :=
  N.testbit NL (N.of_nat h) = true /\ N.testbit idx (N.of_nat h) = false /\
  (forall b, N.of_nat h < b -> N.testbit idx b = N.testbit NL b).

Lemma clear_low_bits x n b : N.testbit (clear_low x n) b = if b <? N.of_nat n then false else N.testbit x b.
Proof.
  unfold clear_low, pow2. destruct (N.ltb_spec b (N.of_nat n)).
  - apply N.mul_pow2_bits_low. lia.
  - rewrite N.mul_pow2_bits_high by lia. rewrite N.div_pow2_bits. f_equal. lia.
Qed.

Lemma elem_bits NL idx h b : in_tree NL idx h ->
  N.testbit (N.lor (clear_low idx h) (pow2 h)) b = (N.of_nat h <=? b) && N.testbit NL b.
Proof.
  intros (H1 & H2 & H3). rewrite N.lor_spec, clear_low_bits. unfold pow2. rewrite N.pow2_bits_eqb.
  destruct (N.ltb_spec b (N.of_nat h)), (N.leb_spec (N.of_nat h) b), (N.eqb_spec (N.of_nat h) b); try lia; cbn [andb orb].
  - subst b. rewrite H1. apply orb_true_r.
  - rewrite H3 by lia. apply orb_false_r.
Qed.

Lemma infer_bits NL ls : Forall (fun x => in_tree NL (fst x) (snd x)) ls -> forall acc b,
  N.testbit (fold_left (fun acc x => N.lor acc (N.lor (clear_low (fst x) (snd x)) (pow2 (snd x)))) ls acc) b =
  N.testbit acc b || (existsb (fun x => N.of_nat (snd x) <=? b) ls && N.testbit NL b).
Proof.
  induction 1 as [|x ls Hx _ IH]; intros acc b; cbn [fold_left existsb].
  - rewrite orb_false_r. reflexivity.
  - rewrite IH, N.lor_spec, (elem_bits NL (fst x) (snd x) b Hx).
    destruct (N.testbit acc b), (N.of_nat (snd x) <=? b), (N.testbit NL b), (existsb _ ls); reflexivity.
Qed.

(* the decoder recovers every proof length from the inferred leaf count, and no leaf is rejected *)
Theorem proof_len_recovered NL ls idx h : Forall (fun x => in_tree NL (fst x) (snd x)) ls -> In (idx, h) ls ->
  proof_len idx (infer_leaves ls) = Some h.
Proof.
  intros F I. unfold proof_len, infer_leaves.
  set (M := fold_left _ ls 0).
  assert (MB : forall b, N.testbit M b = existsb (fun x => N.of_nat (snd x) <=? b) ls && N.testbit NL b).
  { intros b. subst M. rewrite (infer_bits NL ls F 0 b). rewrite N.bits_0. reflexivity. }
  assert (IT : in_tree NL idx h) by (rewrite Forall_forall in F; exact (F (idx, h) I)).
  destruct IT as (H1 & H2 & H3).
  assert (EX : forall b, N.of_nat h <= b -> existsb (fun x => N.of_nat (snd x) <=? b) ls = true).
  { intros b L. apply existsb_exists. exists (idx, h). split; [exact I | apply N.leb_le; exact L]. }
  assert (Mh : N.testbit M (N.of_nat h) = true) by (rewrite MB, EX, H1 by lia; reflexivity).
  assert (Mhi : forall b, N.of_nat h < b -> N.testbit idx b = N.testbit M b) by (intros b L; rewrite MB, EX, H3 by lia; reflexivity).
  assert (LT : idx < M) by (apply (lt_by_bits idx M (N.of_nat h)); auto).
  rewrite (proj2 (N.ltb_lt _ _) LT). f_equal.
  assert (LG : N.log2 (N.lxor idx M) = N.of_nat h).
  { apply N.log2_bits_unique.
    - rewrite N.lxor_spec, H2, Mh. reflexivity.
    - intros m L. rewrite N.lxor_spec, (Mhi m L). apply xorb_nilpotent. }
  rewrite LG. lia.
Qed.

Section Verify.
Variable hash : Type.
Variable node : hash -> hash -> hash.
Notation ptree := (ptree hash).
Notation height := (height hash).
Notation perfect := (perfect hash).
Notation root := (root hash node).

Definition lsb (r : N) (n : nat) : list bool := map (fun k => N.testbit r (N.of_nat k)) (seq 0 n).
Lemma lsb_S r n : lsb r (S n) = lsb r n ++ [N.testbit r (N.of_nat n)].
Proof. unfold lsb. rewrite seq_S, map_app. reflexivity. Qed.
Lemma lsb_length r n : length (lsb r n) = n.
Proof. unfold lsb. rewrite map_length, seq_length. reflexivity. Qed.
Lemma lsb_left q n : q < pow2 n -> lsb q (S n) = lsb q n ++ [false].
Proof. intros Hq. rewrite lsb_S. do 2 f_equal. apply N.testbit_false. fold (pow2 n). rewrite N.div_small by exact Hq. reflexivity. Qed.
Lemma lsb_right q n : q < pow2 n -> lsb (q + pow2 n) (S n) = lsb q n ++ [true].
Proof.
  intros Hq. rewrite lsb_S. rewrite <- (N.mul_1_l (pow2 n)). f_equal.
  - unfold lsb. apply map_ext_in. intros k Hk. apply in_seq in Hk.
    rewrite <- (N.mod_pow2_bits_low (q + 1 * pow2 n) (N.of_nat n)), <- (N.mod_pow2_bits_low q (N.of_nat n) (N.of_nat k)) by lia.
    fold (pow2 n). rewrite N.mod_add by apply pow2_nz. reflexivity.
  - f_equal. apply N.testbit_true. fold (pow2 n). rewrite N.div_add, N.div_small by (exact Hq || apply pow2_nz). reflexivity.
Qed.

(* proofRoot(leaf, index, sibling path) = root, for every leaf of every perfect tree *)
Theorem proof_in_verifies t : perfect t -> forall base i, base <= i < base + pow2 (height t) ->
  proofRoot hash node (leaf_in hash t base i) (lsb (i - base) (height t)) (proof_in hash node t base i) = root t.
Proof.
  induction t as [x|l IHl r IHr]; intros P base i R; cbn [Tree.height leaf_in proof_in Tree.root].
  - reflexivity.
  - destruct P as (Pl & Pr & E). fold (height l). cbn [Tree.height] in R. fold (height l) in R. rewrite pow2_S in R.
    destruct (N.ltb_spec i (base + pow2 (height l))) as [C|C].
    + rewrite lsb_left by lia.
      rewrite proofRoot_snoc by (rewrite lsb_length, (proof_in_length hash node l base i Pl); reflexivity).
      rewrite (IHl Pl base i) by lia. reflexivity.
    + replace (i - base) with (i - (base + pow2 (height l)) + pow2 (height l)) by lia. rewrite lsb_right by lia.
      rewrite proofRoot_snoc by (rewrite lsb_length, (proof_in_length hash node r (base + pow2 (height l)) i Pr); lia).
      rewrite E in *. rewrite (IHr Pr) by lia. reflexivity.
Qed.
End Verify.
