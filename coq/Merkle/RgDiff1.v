(* Diff proofs: the sorted set of touched indices that sectorsChanged's marking pass builds, its members below a count
   (the verifier's index list), and positions in it. *)
From Coq Require Import List NArith Arith Bool Lia Sorted.
From Sia Require Import Prim.Tok Merkle.Rhp.
Import ListNotations.
Local Open Scope N_scope.

Notation SS := (StronglySorted N.lt).

Lemma insert_sorted_in x l y : In y (insert_sorted x l) <-> y = x \/ In y l.
Proof.
  induction l as [|z l IH]; cbn [insert_sorted In]; [intuition congruence|].
  destruct (N.ltb_spec x z); [cbn [In]; intuition congruence|]. destruct (N.eqb_spec x z) as [->|Ne]; cbn [In]; [intuition congruence|]. rewrite IH. intuition congruence.
Qed.
Lemma insert_sorted_sorted x l : SS l -> SS (insert_sorted x l).
Proof.
  induction l as [|z l IH]; intros S; cbn [insert_sorted]; [constructor; [constructor | constructor]|].
  inversion S as [|? ? S' F]; subst. destruct (N.ltb_spec x z) as [L|G].
  - constructor; [exact S|]. constructor; [exact L|]. rewrite Forall_forall in *. intros y Hy. specialize (F y Hy). lia.
  - destruct (N.eqb_spec x z) as [->|Ne]; [exact S|]. constructor; [apply IH; exact S'|].
    rewrite Forall_forall in *. intros y Hy. apply insert_sorted_in in Hy. destruct Hy as [->|Hy]; [lia | apply F; exact Hy].
Qed.
Lemma trim_marks_sorted k : forall cur set, SS set -> SS (snd (trim_marks k cur set)).
Proof. induction k as [|k IH]; intros cur set S; cbn [trim_marks]; [exact S|]. apply IH. apply insert_sorted_sorted. exact S. Qed.
Lemma changed_sorted acts : forall cur set, SS set -> SS (changed_aux acts cur set).
Proof.
  induction acts as [|[|a|a b] r IH]; intros cur set S; cbn [changed_aux]; [exact S| | |].
  - apply IH. apply insert_sorted_sorted. exact S.
  - pose proof (trim_marks_sorted (N.to_nat a) cur set S) as T. destruct (trim_marks (N.to_nat a) cur set) as [c s]. apply IH. exact T.
  - apply IH. apply insert_sorted_sorted, insert_sorted_sorted. exact S.
Qed.
Lemma trim_marks_keeps k : forall cur set x, In x set -> In x (snd (trim_marks k cur set)).
Proof. induction k as [|k IH]; intros cur set x Hin; cbn [trim_marks snd]; [exact Hin|]. apply IH. apply insert_sorted_in. right. exact Hin. Qed.
Lemma trim_marks_in k : forall cur set x, cur - N.of_nat k <= x < cur -> In x (snd (trim_marks k cur set)).
Proof.
  induction k as [|k IH]; intros cur set x Hx; cbn [trim_marks]; [lia|].
  destruct (N.eq_dec x (cur - 1)) as [->|Ne]; [apply trim_marks_keeps, insert_sorted_in; left; reflexivity | apply IH; lia].
Qed.
Lemma trim_marks_cur k : forall cur set, fst (trim_marks k cur set) = cur - N.of_nat k.
Proof. induction k as [|k IH]; intros cur set; cbn [trim_marks fst]; [lia|]. rewrite IH. lia. Qed.
Lemma changed_mono acts : forall cur set x, In x set -> In x (changed_aux acts cur set).
Proof.
  induction acts as [|[|a|a b] r IH]; intros cur set x Hin; cbn [changed_aux]; [exact Hin| | |].
  - apply IH. apply insert_sorted_in. right. exact Hin.
  - destruct (trim_marks (N.to_nat a) cur set) as [c s] eqn:E. apply IH. change s with (snd (c, s)). rewrite <- E. apply trim_marks_keeps. exact Hin.
  - apply IH. apply insert_sorted_in. right. apply insert_sorted_in. right. exact Hin.
Qed.
Lemma touched_changed acts : forall num set, touched acts num set = changed_aux acts num set.
Proof. induction acts as [|[|a|a b] r IH]; intros num set; cbn [touched changed_aux]; [reflexivity | apply IH | destruct (trim_marks (N.to_nat a) num set); apply IH | apply IH]. Qed.
Lemma filter_sorted (p : N -> bool) l : SS l -> SS (filter p l).
Proof.
  induction l as [|x l IH]; intros S; cbn [filter]; [constructor|]. inversion S as [|? ? S' F]; subst.
  destruct (p x); [|apply IH; exact S']. constructor; [apply IH; exact S'|].
  rewrite Forall_forall in *. intros y Hy. apply filter_In in Hy. apply F. tauto.
Qed.

Definition below (c : N) (C : list N) : list N := filter (fun i => i <? c) C.

Lemma below_nil c C : Forall (fun y => c <= y) C -> below c C = [].
Proof. induction C as [|y C IH]; intros F; [reflexivity|]. inversion F; subst. cbn [below filter]. destruct (N.ltb_spec y c); [lia|]. apply IH. assumption. Qed.

Lemma below_succ C : SS C -> forall c, In c C -> below (c + 1) C = below c C ++ [c].
Proof.
  induction C as [|y C IH]; intros S c Hin; [destruct Hin|]. destruct (StronglySorted_inv S) as [S' F]. cbn [below filter].
  destruct Hin as [->|Hin].
  - destruct (N.ltb_spec c (c + 1)); [|lia]. destruct (N.ltb_spec c c); [lia|].
    fold (below (c + 1) C). fold (below c C). rewrite (below_nil (c + 1) C), (below_nil c C); [reflexivity | |];
      (eapply Forall_impl; [|exact F]; cbv beta; intros; lia).
  - rewrite Forall_forall in F. specialize (F c Hin). destruct (N.ltb_spec y (c + 1)); [|lia]. destruct (N.ltb_spec y c); [|lia].
    fold (below (c + 1) C). fold (below c C). rewrite (IH S' c Hin). reflexivity.
Qed.
Lemma below_In c C x : In x (below c C) <-> In x C /\ x < c.
Proof. unfold below. rewrite filter_In. destruct (N.ltb_spec x c); intuition (try lia; try discriminate). Qed.
Lemma below_length_le c C : (length (below c C) <= length C)%nat.
Proof. unfold below. induction C as [|y C IH]; cbn [filter length]; [lia|]. destruct (y <? c); cbn [length]; lia. Qed.

(* the shape of modify_ranges' trim step: where C holds c-a .. c-1, these are the last a members below c *)
Lemma below_trim C : SS C -> forall (a : nat) c, N.of_nat a <= c -> (forall k, c - N.of_nat a <= k -> k < c -> In k C) ->
  firstn (length (below c C) - a) (below c C) = below (c - N.of_nat a) C /\ (a <= length (below c C))%nat.
Proof.
  intros Ss. induction a as [|a IH]; intros c Hc Hin.
  - rewrite Nat.sub_0_r, firstn_all. replace (c - N.of_nat 0) with c by lia. split; [reflexivity | lia].
  - assert (E : below c C = below (c - 1) C ++ [c - 1]).
    { replace c with ((c - 1) + 1) at 1 by lia. apply below_succ; [exact Ss|]. apply Hin; lia. }
    destruct (IH (c - 1) ltac:(lia) ltac:(intros k K1 K2; apply Hin; lia)) as [E2 L2].
    rewrite E, app_length. cbn [length]. split; [|lia].
    replace (length (below (c - 1) C) + 1 - S a)%nat with (length (below (c - 1) C) - a)%nat by lia.
    rewrite firstn_app. replace (length (below (c - 1) C) - a - length (below (c - 1) C))%nat with 0%nat by lia.
    cbn [firstn]. rewrite app_nil_r, E2. f_equal. lia.
Qed.

Lemma below_count C : SS C -> forall a b, a <= b -> (forall k, a <= k -> k < b -> In k C) ->
  N.of_nat (length (below b C)) = N.of_nat (length (below a C)) + (b - a).
Proof.
  intros Ss a b Le Hin. destruct (below_trim C Ss (N.to_nat (b - a)) b) as [E L]; rewrite ?N2Nat.id.
  - apply N.le_sub_l.
  - intros k K1 K2. apply Hin; [clear - K1 Le; lia | exact K2].
  - rewrite N2Nat.id in E. replace (b - (b - a)) with a in E by (clear - Le; lia). rewrite <- E, firstn_length_le by apply Nat.le_sub_l. clear - L. lia.
Qed.

Lemma below_prefix C : SS C -> forall c, exists rest, C = below c C ++ rest.
Proof.
  induction C as [|y C IH]; intros S c; [exists []; reflexivity|]. destruct (StronglySorted_inv S) as [S' F]. cbn [below filter].
  destruct (N.ltb_spec y c).
  - destruct (IH S' c) as [rest E]. exists rest. cbn [app]. fold (below c C). rewrite <- E. reflexivity.
  - exists (y :: C). fold (below c C). rewrite (below_nil c C); [reflexivity|]. eapply Forall_impl; [|exact F]. cbv beta. intros. lia.
Qed.
Lemma below_sorted c C : SS C -> SS (below c C).
Proof. intros S. apply filter_sorted; exact S. Qed.

Lemma index_of_spec x : forall l k, In x l -> (k <= index_of x l k < k + length l)%nat /\ nth (index_of x l k - k) l 0 = x.
Proof.
  induction l as [|y r IH]; intros k Hin; [destruct Hin|]. cbn [index_of length]. destruct (N.eqb_spec x y) as [->|Ne].
  - split; [lia|]. rewrite Nat.sub_diag. reflexivity.
  - destruct Hin as [E|Hin]; [congruence|]. destruct (IH (S k) Hin) as [B E]. split; [lia|].
    replace (index_of x r (S k) - k)%nat with (S (index_of x r (S k) - S k)) by lia. exact E.
Qed.
Lemma ss_nodup C : SS C -> NoDup C.
Proof.
  induction C as [|y C IH]; intros S; [constructor|]. destruct (StronglySorted_inv S) as [S' F]. constructor; [|apply IH; exact S'].
  intros Hin. rewrite Forall_forall in F. specialize (F y Hin). lia.
Qed.
Lemma index_of_prefix x I rest : In x I -> index_of x (I ++ rest) 0 = index_of x I 0.
Proof.
  generalize 0%nat. induction I as [|y r IH]; intros k Hin; [destruct Hin|]. cbn [app index_of]. destruct (N.eqb_spec x y); [reflexivity|].
  destruct Hin as [E|Hin]; [congruence|]. apply IH. exact Hin.
Qed.
Lemma nodup_pos I p x : NoDup I -> (p < length I)%nat -> nth p I 0 = x -> index_of x I 0 = p.
Proof.
  intros ND L E. destruct (index_of_spec x I 0) as [B P]; [rewrite <- E; apply nth_In, L|]. rewrite Nat.sub_0_r in P.
  apply (proj1 (NoDup_nth I 0) ND); [lia | exact L | rewrite P, E; reflexivity].
Qed.
