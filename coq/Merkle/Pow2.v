(* Powers of two over N, as the index arithmetic of the accumulator and the multiproofs uses them. *)
From Coq Require Import NArith Lia.
Local Open Scope N_scope.

Lemma N_pow2_S h : 2 ^ N.of_nat (S h) = 2 * 2 ^ N.of_nat h.
Proof. rewrite Nat2N.inj_succ. apply N.pow_succ_r'. Qed.

Lemma N_pow2_nz h : 2 ^ N.of_nat h <> 0.
Proof. apply N.pow_nonzero. discriminate. Qed.

(* of two numbers, the one with the zero at the highest bit where they differ is the smaller *)
Lemma lt_by_bits a m h : N.testbit a h = false -> N.testbit m h = true ->
  (forall b, h < b -> N.testbit a b = N.testbit m b) -> a < m.
Proof.
  intros Ha Hm Hb. apply N.testbit_false in Ha. apply N.testbit_true in Hm.
  assert (Q : a / 2 ^ h / 2 = m / 2 ^ h / 2).
  { rewrite !N.div_div, !(N.mul_comm (2 ^ h)), <- !N.pow_succ_r' by (try apply N.pow_nonzero; discriminate).
    apply N.bits_inj. intros k. rewrite !N.div_pow2_bits. apply Hb. lia. }
  assert (E : m / 2 ^ h = N.succ (a / 2 ^ h)).
  { pose proof (N.div_mod (a / 2 ^ h) 2). pose proof (N.div_mod (m / 2 ^ h) 2). lia. }
  pose proof (N.mul_succ_div_gt a (2 ^ h) ltac:(apply N.pow_nonzero; discriminate)).
  pose proof (N.mul_div_le m (2 ^ h) ltac:(apply N.pow_nonzero; discriminate)).
  rewrite E in *. lia.
Qed.
