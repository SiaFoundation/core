(* consensus/merkle.go, proof maintenance inside one perfect tree:
   - updateLeaves.recompute returns, besides the new root, every updated leaf with its proof in the *updated* tree;
   - updateProof patches the proof of any other leaf from the closest updated leaf, and the result is that leaf's
     proof in the updated tree.
   Positions are bit lists, MSB first (top-down); Go's leaf index bits and bottom-up proofs are their reversals
   (Merkle/AccProofs.v: lsb_bits_path). *)
From Coq Require Import List Arith Lia Bool Permutation.
Import ListNotations.
From Sia Require Import Merkle.Tree Merkle.Update.

Section UpdateProofs.
Variable hash : Type.
Variable node : hash -> hash -> hash.
Notation ptree := (ptree hash).
Notation root := (root hash node).
Notation sibs := (sibs hash node).
Notation perfect := (perfect hash).
Notation height := (height hash).
Notation uleaf := (uleaf hash).
Notation recompute := (recompute hash node).
Notation apply_updates := (apply_updates hash).
Notation valid_old := (valid_old hash node).

Definition key (u : uleaf) : list bool * hash := (pos hash u, newh hash u).

Lemma key_with_top s b (u : uleaf) : key (with_top hash s b u) = (b :: pos hash u, newh hash u).
Proof. reflexivity. Qed.

Theorem recompute_spec d t : forall ls, perfect t -> ls <> [] -> Forall (valid_old t) ls -> NoDup (map (pos hash) ls) ->
  let t' := apply_updates t ls in
  fst (recompute (height t) d ls) = root t' /\
  Forall (fun u => prf hash u = sibs t' (pos hash u)) (snd (recompute (height t) d ls)) /\
  Permutation (map key (snd (recompute (height t) d ls))) (map key ls).
Proof.
  intros ls Hp Hne Hv Hnd. destruct (recompute_recomputed hash node d t ls Hp Hne Hv Hnd) as (A & B & C).
  split; [exact A|]. split; [|exact C]. eapply Forall_impl; [|exact B]. intros u Hu. exact (proj1 Hu).
Qed.

Notation common := (common Bool.eqb).

(* root of a subtree from the hash x of one of its leaves, the path p to that leaf and the siblings ps along it (both
   top-down); update_proof applies it to the part of a position and proof below a depth *)
Fixpoint root_from (x : hash) (p : list bool) (ps : list hash) : hash :=
  match p, ps with
  | b :: p', s :: ps' => let r := root_from x p' ps' in if b then node s r else node r s
  | _, _ => x
  end.

Lemma root_from_sibs t : forall p x, get hash t p = Some x -> root_from x p (sibs t p) = root t.
Proof.
  induction t as [y|l IHl r IHr]; intros p x Hg.
  - destruct p; simpl in *; [now inversion Hg | discriminate].
  - destruct p as [|b p]; simpl in *; [discriminate|].
    destruct b; simpl; [rewrite (IHr p x Hg) | rewrite (IHl p x Hg)]; reflexivity.
Qed.

(* the updated leaf whose position shares the longest prefix with p (the lowest mergeHeight); the first one on ties *)
Fixpoint best (p : list bool) (ls : list uleaf) : option uleaf :=
  match ls with
  | [] => None
  | u :: rest => match best p rest with
                 | Some v => if common p (pos hash u) <? common p (pos hash v) then Some v else Some u
                 | None => Some u
                 end
  end.
Lemma best_none p ls : best p ls = None -> ls = [].
Proof. destruct ls as [|u ls]; [reflexivity|]. cbn [best]. destruct (best p ls); [destruct (_ <? _)|]; discriminate. Qed.
Lemma best_in p ls u : best p ls = Some u -> In u ls /\ Forall (fun v => common p (pos hash v) <= common p (pos hash u)) ls.
Proof.
  revert u. induction ls as [|w ls IH]; intros u E; cbn [best] in E; [discriminate|].
  destruct (best p ls) as [v|] eqn:B.
  - destruct (IH v eq_refl) as [Hin F]. destruct (Nat.ltb_spec (common p (pos hash w)) (common p (pos hash v))); inversion E; subst.
    + split; [right; exact Hin|]. constructor; [lia | exact F].
    + split; [left; reflexivity|]. constructor; [lia|]. eapply Forall_impl; [|exact F]. cbv beta. intros; lia.
  - inversion E; subst. rewrite (best_none p ls B). split; [left; reflexivity|]. constructor; [lia | constructor].
Qed.

(* updateProof(e, updated): [prf0] is e's current proof (top-down), [ls] the updated leaves with their new proofs *)
Definition update_proof (p : list bool) (prf0 : list hash) (ls : list uleaf) : list hash :=
  match best p ls with
  | None => prf0
  | Some b =>
    let k := common p (pos hash b) in
    if k =? length p then prf hash b
    else firstn k (prf hash b) ++ root_from (newh hash b) (skipn (S k) (pos hash b)) (skipn (S k) (prf hash b)) :: skipn (S k) prf0
  end.

Lemma nth_error_firstn_skipn {A} (l : list A) : forall k y, nth_error l k = Some y -> l = firstn k l ++ y :: skipn (S k) l.
Proof. induction l as [|z l IH]; intros [|k] y E; cbn in *; try discriminate; [congruence | f_equal; apply IH; exact E]. Qed.

(* where the positions part, the sibling of p is the root of the subtree that holds q *)
Lemma sibs_diverge t : forall p q x, perfect t -> length p = height t -> get hash t q = Some x -> common p q < length p ->
  nth_error (sibs t p) (common p q) = Some (root_from x (skipn (S (common p q)) q) (skipn (S (common p q)) (sibs t q))).
Proof.
  induction t as [y|l IHl r IHr]; intros [|a p] [|b q] x Hp Lp Hg Hk; cbn [Tree.common Tree.sibs Tree.get Tree.height length] in *; try discriminate; try lia.
  destruct Hp as (Hl & Hr & Hh). destruct (Bool.eqb a b) eqn:E.
  - apply Bool.eqb_prop in E. subst b. cbn [nth_error skipn]. destruct a; [apply IHr | apply IHl]; (assumption || lia).
  - cbn [nth_error skipn]. f_equal. symmetry. destruct a, b; try discriminate; apply root_from_sibs; exact Hg.
Qed.

Lemma sibs_below p k ls : forall t, Forall (fun v => common p (pos hash v) < k) ls ->
  skipn k (sibs (apply_updates t ls) p) = skipn k (sibs t p).
Proof.
  induction ls as [|u ls IH]; intros t F; [reflexivity|]. inversion F as [|? ? Hu Hls]; subst.
  rewrite <- (sibs_set_below hash node t p (pos hash u) (newh hash u) k Hu). exact (IH _ Hls).
Qed.

(* the proof of p in the updated tree, from that of a position q such that no update parts from p later than q does:
   q's siblings along the common prefix, the root of the subtree that holds q, and p's old siblings below *)
Lemma sibs_patch t p q ls x : perfect t -> length p = height t -> get hash (apply_updates t ls) q = Some x ->
  Forall (fun v => common p (pos hash v) <= common p q) ls -> common p q < length p ->
  let t' := apply_updates t ls in
  let k := common p q in
  sibs t' p = firstn k (sibs t' q) ++ root_from x (skipn (S k) q) (skipn (S k) (sibs t' q)) :: skipn (S k) (sibs t p).
Proof.
  intros Hp Lp Hg Fc Hk. cbv zeta.
  rewrite (nth_error_firstn_skipn _ _ _ (sibs_diverge _ p q x (apply_updates_perfect hash t ls Hp) ltac:(rewrite apply_updates_height; exact Lp) Hg Hk)) at 1.
  rewrite (sibs_common hash node _ p q), (sibs_below p (S (common p q)) ls t); [reflexivity|].
  eapply Forall_impl; [|exact Fc]. cbv beta. intros v Hv. lia.
Qed.

Lemma sibs_updates t : forall p q ls x, perfect t -> length p = height t -> length q = height t ->
  Forall (fun v => length (pos hash v) = height t) ls ->
  get hash (apply_updates t ls) q = Some x ->
  Forall (fun v => common p (pos hash v) <= common p q) ls -> common p q < length p ->
  let t' := apply_updates t ls in
  let k := common p q in
  sibs t' p = firstn k (sibs t' q) ++ root_from x (skipn (S k) q) (skipn (S k) (sibs t' q)) :: skipn (S k) (sibs t p).
Proof. intros p q ls x Hp Lp _ _. apply sibs_patch; assumption. Qed.

(* updateProof is correct: given the old proof of p and, for every updated position, a leaf carrying its new hash and
   its proof in the updated tree (what recompute returns, in whatever order), the patched proof is p's proof in the
   updated tree *)
Lemma update_proof_any_order t p ls us : perfect t -> length p = height t -> us <> [] ->
  (forall v, In v ls -> In (pos hash v) (map (pos hash) us)) ->
  let t' := apply_updates t ls in
  Forall (current hash node t') us -> update_proof p (sibs t p) us = sibs t' p.
Proof.
  intros Hp Lp Hne Sub t' Fv. unfold update_proof.
  destruct (best p us) as [b|] eqn:B; [|destruct (Hne (best_none p us B))].
  destruct (best_in p us b B) as [Hin Fc]. destruct (proj1 (Forall_forall _ _) Fv b Hin) as [Pb Gb].
  destruct (Nat.eqb_spec (common p (pos hash b)) (length p)) as [E|NE].
  - rewrite (common_full p (pos hash b)); [exact Pb | | exact E]. rewrite Lp, <- (apply_updates_height hash t ls).
    symmetry. apply (sibs_length hash node _ _ _ (apply_updates_perfect hash t ls Hp) Gb).
  - rewrite Pb. symmetry. apply (sibs_patch t p (pos hash b) ls (newh hash b) Hp Lp Gb).
    + apply Forall_forall. intros v Hv. apply Sub, in_map_iff in Hv. destruct Hv as (u & <- & Hu).
      exact (proj1 (Forall_forall _ _) Fc u Hu).
    + destruct (common_le p (pos hash b)). lia.
Qed.

Theorem update_proof_correct t p ls : perfect t -> length p = height t -> ls <> [] ->
  Forall (fun v => length (pos hash v) = height t) ls ->
  let t' := apply_updates t ls in
  Forall (fun v => prf hash v = sibs t' (pos hash v) /\ get hash t' (pos hash v) = Some (newh hash v)) ls ->
  update_proof p (sibs t p) ls = sibs t' p.
Proof. intros Hp Lp Hne _. apply update_proof_any_order; try assumption. intros v Hv. apply in_map. exact Hv. Qed.

(* updateLeaves followed by updateProof, on one perfect tree: the recomputed root is the root of the updated tree and
   every leaf position -- updated or not -- ends up with its proof in the updated tree *)
Theorem update_flow d t ls p : perfect t -> ls <> [] -> Forall (valid_old t) ls -> NoDup (map (pos hash) ls) -> length p = height t ->
  let t' := apply_updates t ls in
  let '(rt, ls') := recompute (height t) d ls in
  rt = root t' /\ update_proof p (sibs t p) ls' = sibs t' p.
Proof.
  intros Hp Hne Hv Hnd Lp. cbv zeta. destruct (recompute_recomputed hash node d t ls Hp Hne Hv Hnd) as (A & B & C).
  destruct (recompute (height t) d ls) as [rt ls']. cbn [fst snd] in *. split; [exact A|].
  apply update_proof_any_order; try assumption.
  - intros En. subst ls'. cbn [map] in C. apply Permutation_nil in C. destruct ls; [contradiction | discriminate].
  - intros v Hin. apply (in_map (fun u => (pos hash u, newh hash u))), (Permutation_in _ (Permutation_sym C)), in_map_iff in Hin.
    destruct Hin as (u & E & Hu). apply in_map_iff. exists u. split; [congruence | exact Hu].
Qed.
End UpdateProofs.
