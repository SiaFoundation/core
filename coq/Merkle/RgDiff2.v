(* Diff proofs: the verifier's bookkeeping (modifyLeaves, modifyProofRanges), run on the leaf hashes and indices of the
   changed sectors of the old list, yields those of the list after the actions. *)
From Coq Require Import List NArith Arith Bool Lia Sorted.
From Sia Require Import Prim.Tok Merkle.Rhp Merkle.RgMulti.
From Sia Require Import Merkle.RgDiff1.
Import ListNotations.
Local Open Scope N_scope.

(* what the actions do to the list of sector roots (append takes the next precomputed root) *)
Fixpoint apply_acts (acts : list action) (L ar : list hash) : option (list hash) :=
  match acts with
  | [] => Some L
  | AAppend :: r => match ar with x :: ar' => apply_acts r (L ++ [x]) ar' | [] => None end
  | ATrim a :: r => if N.of_nat (length L) <? a then None else apply_acts r (firstn (length L - N.to_nat a) L) ar
  | ASwap a b :: r =>
    match nth_error L (N.to_nat a), nth_error L (N.to_nat b) with
    | Some x, Some y => apply_acts r (Rhp.set_nth (N.to_nat b) x (Rhp.set_nth (N.to_nat a) y L)) ar
    | _, _ => None
    end
  end.

Lemma set_nth_length {A} k (x : A) l : length (Rhp.set_nth k x l) = length l.
Proof.
  unfold Rhp.set_nth. rewrite app_length, firstn_length. pose proof (skipn_length k l) as Sk.
  destruct (skipn k l) as [|y r] eqn:E; cbn [length] in *; lia.
Qed.
Lemma set_nth_nth {A} k (x : A) l d p : nth p (Rhp.set_nth k x l) d = if (p =? k)%nat && (k <? length l)%nat then x else nth p l d.
Proof.
  revert k p. induction l as [|y l IH]; intros k p.
  - unfold Rhp.set_nth. rewrite firstn_nil, skipn_nil, andb_false_r. reflexivity.
  - destruct k as [|k]; [destruct p; reflexivity|]. destruct p as [|p]; [reflexivity | exact (IH k p)].
Qed.
Lemma nth_firstn_lt {A} (l : list A) m p d : (p < m)%nat -> nth p (firstn m l) d = nth p l d.
Proof. revert m p. induction l as [|y l IH]; intros m p L; [rewrite firstn_nil; reflexivity|]. destruct m; [lia|]. destruct p; [reflexivity|]. cbn. apply IH. lia. Qed.
Lemma nth_error_both {A} (l : list A) p d x : nth_error l p = Some x -> nth p l d = x /\ (p < length l)%nat.
Proof. intros E. split; [apply nth_error_nth; exact E | apply nth_error_Some; congruence]. Qed.

Section Inv.
Variable C : list N.
Hypothesis HC : SS C.

(* every index the marking pass touches, run from count c, is in C *)
Fixpoint marked (acts : list action) (c : N) : Prop :=
  match acts with
  | [] => True
  | AAppend :: r => In c C /\ marked r (c + 1)
  | ATrim a :: r => (forall k, c - a <= k < c -> In k C) /\ marked r (c - a)
  | ASwap a b :: r => In a C /\ In b C /\ marked r c
  end.
Lemma changed_marked acts : forall c S, changed_aux acts c S = C -> marked acts c.
Proof.
  induction acts as [|[|a|a b] r IH]; intros c S EC; cbn [changed_aux marked] in *; [exact I| | |].
  - split; [|exact (IH _ _ EC)]. rewrite <- EC. apply changed_mono, insert_sorted_in. left. reflexivity.
  - pose proof (trim_marks_cur (N.to_nat a) c S) as E1. pose proof (trim_marks_in (N.to_nat a) c S) as E2.
    destruct (trim_marks (N.to_nat a) c S) as [c1 s1]. cbn [fst snd] in *. rewrite N2Nat.id in *. subst c1.
    split; [|exact (IH _ _ EC)]. intros k Hk. rewrite <- EC. apply changed_mono, E2, Hk.
  - split; [|split; [|exact (IH _ _ EC)]]; rewrite <- EC; apply changed_mono, insert_sorted_in; [right; apply insert_sorted_in|]; left; reflexivity.
Qed.

Lemma below_pos a c : In a C -> a < c -> (index_of a C 0 < length (below c C))%nat /\ nth (index_of a C 0) (below c C) 0 = a.
Proof.
  intros Ia Lt. assert (IaI : In a (below c C)) by (apply below_In; split; assumption).
  assert (E : index_of a C 0 = index_of a (below c C) 0).
  { destruct (below_prefix C HC c) as [rest EP]. exact (eq_trans (f_equal (fun l => index_of a l 0) EP) (index_of_prefix a _ rest IaI)). }
  rewrite E. destruct (index_of_spec a _ 0 IaI) as [B P]. rewrite Nat.sub_0_r in P. split; [lia | exact P].
Qed.
Lemma leaves_at_get L a : In a C -> (N.to_nat a < length L)%nat ->
  nth_error (leaves_at L (below (N.of_nat (length L)) C)) (index_of a C 0) = Some (nth (N.to_nat a) L zero_hash).
Proof.
  intros Ia La. destruct (below_pos a (N.of_nat (length L)) Ia ltac:(lia)) as [B P].
  rewrite (nth_error_nth' _ zero_hash) by (rewrite leaves_at_length; exact B). rewrite leaves_at_nth, P by exact B. reflexivity.
Qed.
Lemma leaves_at_set L a v : In a C -> (N.to_nat a < length L)%nat ->
  Rhp.set_nth (index_of a C 0) v (leaves_at L (below (N.of_nat (length L)) C)) = leaves_at (Rhp.set_nth (N.to_nat a) v L) (below (N.of_nat (length L)) C).
Proof.
  intros Ia La. destruct (below_pos a (N.of_nat (length L)) Ia ltac:(lia)) as [B P]. set (I := below _ C) in *.
  assert (ND : NoDup I) by (apply ss_nodup, below_sorted, HC).
  apply (nth_ext _ _ zero_hash zero_hash); [rewrite set_nth_length, !leaves_at_length; reflexivity|].
  intros p Lp. rewrite set_nth_length, leaves_at_length in Lp. rewrite set_nth_nth, leaves_at_length, !leaves_at_nth, set_nth_nth by exact Lp.
  rewrite (proj2 (Nat.ltb_lt _ _) B), (proj2 (Nat.ltb_lt _ _) La), !andb_true_r.
  destruct (Nat.eqb_spec p (index_of a C 0)) as [->|Np]; [rewrite P, Nat.eqb_refl; reflexivity|].
  destruct (Nat.eqb_spec (N.to_nat (nth p I 0)) (N.to_nat a)) as [Eq|_]; [|reflexivity].
  exfalso. apply Np, (proj1 (NoDup_nth I 0) ND); [exact Lp | exact B | rewrite P; lia].
Qed.
Lemma leaves_at_low L L' c : (forall j, j < c -> nth (N.to_nat j) L zero_hash = nth (N.to_nat j) L' zero_hash) -> leaves_at L (below c C) = leaves_at L' (below c C).
Proof. intros E. apply leaves_at_ext. intros j Hj. apply E, (below_In c C j), Hj. Qed.

(* modifyLeaves and modifyProofRanges, run on the leaf hashes and indices below the old count, arrive at those below the new *)
Lemma acts_follow : forall acts L ar new, marked acts (N.of_nat (length L)) -> apply_acts acts L ar = Some new ->
  modify_leaves_aux (leaves_at L (below (N.of_nat (length L)) C)) acts C ar = Some (leaves_at new (below (N.of_nat (length new)) C)) /\
  modify_ranges (below (N.of_nat (length L)) C) acts (N.of_nat (length L)) = Some (below (N.of_nat (length new)) C).
Proof.
  induction acts as [|[|a|a b] r IH]; intros L ar new Mk EA; cbn [apply_acts marked modify_leaves_aux modify_ranges] in *.
  - injection EA as <-. split; reflexivity.
  - destruct ar as [|x ar']; [discriminate|]. destruct Mk as [InC Mk].
    specialize (IH (L ++ [x]) ar' new). rewrite app_length, Nat2N.inj_add in IH. change (N.of_nat (length [x])) with 1 in IH. rewrite (below_succ C HC _ InC), leaves_at_app in IH.
    rewrite <- (leaves_at_low L (L ++ [x])) in IH by (intros j Hj; symmetry; apply app_nth1; lia).
    unfold leaves_at at 2 in IH. cbn [map] in IH. rewrite Nat2N.id, nth_middle in IH. exact (IH Mk EA).
  - destruct (N.ltb_spec (N.of_nat (length L)) a) as [|Ha]; [discriminate|]. destruct Mk as [Marks Mk]. set (c := N.of_nat (length L)) in *.
    destruct (below_trim C HC (N.to_nat a) c ltac:(clear - Ha; lia) ltac:(intros k K1 K2; apply Marks; clear - K1 K2; lia)) as [BT BL]. rewrite N2Nat.id in BT.
    rewrite leaves_at_length, (proj2 (N.ltb_ge _ _)) by (clear - BL; lia). unfold leaves_at at 1. rewrite firstn_map, BT. fold (leaves_at L (below (c - a) C)).
    specialize (IH (firstn (length L - N.to_nat a) L) ar new).
    replace (N.of_nat (length (firstn (length L - N.to_nat a) L))) with (c - a) in IH by (rewrite firstn_length; unfold c; clear - Ha; lia).
    rewrite <- (leaves_at_low L (firstn (length L - N.to_nat a) L)) in IH by (intros j Hj; symmetry; apply nth_firstn_lt; unfold c in Hj; clear - Hj; lia).
    exact (IH Mk EA).
  - destruct (nth_error L (N.to_nat a)) as [x|] eqn:Ea; [|discriminate]. destruct (nth_error L (N.to_nat b)) as [y|] eqn:Eb; [|discriminate].
    destruct (nth_error_both L _ zero_hash x Ea) as [<- La]. destruct (nth_error_both L _ zero_hash y Eb) as [<- Lb]. destruct Mk as (Ia & Ib & Mk).
    cbv zeta. rewrite (leaves_at_get L a Ia La), (leaves_at_get L b Ib Lb), (leaves_at_set L a _ Ia La).
    pose proof (leaves_at_set (Rhp.set_nth (N.to_nat a) (nth (N.to_nat b) L zero_hash) L) b (nth (N.to_nat a) L zero_hash) Ib) as E.
    rewrite set_nth_length in E. rewrite (E Lb). pose proof (fun M => IH _ _ _ M EA) as IH'. rewrite !set_nth_length in IH'. exact (IH' Mk).
Qed.

Lemma acts_frame : forall acts L ar new, marked acts (N.of_nat (length L)) -> apply_acts acts L ar = Some new ->
  (forall i, ~ In (N.of_nat i) C -> (i < length L)%nat -> (i < length new)%nat -> nth i new zero_hash = nth i L zero_hash) /\
  (forall k, N.min (N.of_nat (length L)) (N.of_nat (length new)) <= k -> k < N.max (N.of_nat (length L)) (N.of_nat (length new)) -> In k C).
Proof.
  induction acts as [|[|a|a b] r IH]; intros L ar new Mk EA; cbn [apply_acts marked] in *.
  - injection EA as <-. split; [reflexivity | intros k; lia].
  - destruct ar as [|x ar']; [discriminate|]. destruct Mk as [InC Mk].
    specialize (IH (L ++ [x]) ar' new). rewrite app_length, Nat2N.inj_add in IH. change (N.of_nat (length [x])) with 1 in IH. destruct (IH Mk EA) as (F1 & F2). split.
    + intros i Ni Li Ln. rewrite (F1 i Ni ltac:(clear - Li; lia) Ln). apply app_nth1, Li.
    + intros k K1 K2. destruct (N.eq_dec k (N.of_nat (length L))) as [->|Ne]; [exact InC | apply F2; clear - K1 K2 Ne; lia].
  - destruct (N.ltb_spec (N.of_nat (length L)) a) as [|Ha]; [discriminate|]. destruct Mk as [Marks Mk]. set (c := N.of_nat (length L)) in *.
    specialize (IH (firstn (length L - N.to_nat a) L) ar new). rewrite firstn_length in IH.
    replace (N.of_nat (Nat.min (length L - N.to_nat a) (length L))) with (c - a) in IH by (unfold c; clear - Ha; lia). destruct (IH Mk EA) as (F1 & F2). split.
    + intros i Ni Li Ln. destruct (Nat.lt_ge_cases i (length L - N.to_nat a)) as [Li'|G]; [|exfalso; apply Ni, Marks; unfold c; clear - G Li; lia].
      rewrite (F1 i Ni ltac:(clear - Li'; lia) Ln). apply nth_firstn_lt, Li'.
    + intros k K1 K2. destruct (N.lt_ge_cases k (c - a)) as [A|A]; [apply F2; clear - K1 K2 A Ha; lia|]. destruct (N.lt_ge_cases k c) as [A2|A2]; [apply Marks; clear - A A2; lia | apply F2; clear - K1 K2 A2 Ha; lia].
  - destruct (nth_error L (N.to_nat a)) as [x|]; [|discriminate]. destruct (nth_error L (N.to_nat b)) as [y|]; [|discriminate]. destruct Mk as (Ia & Ib & Mk).
    pose proof (fun M => IH _ _ _ M EA) as IH'. rewrite !set_nth_length in IH'. destruct (IH' Mk) as (F1 & F2). split; [|exact F2].
    intros p Np Lp Ln. rewrite (F1 p Np Lp Ln), !set_nth_nth.
    destruct (Nat.eqb_spec p (N.to_nat b)) as [->|_]; [exfalso; apply Np; rewrite N2Nat.id; exact Ib|].
    destruct (Nat.eqb_spec p (N.to_nat a)) as [->|_]; [exfalso; apply Np; rewrite N2Nat.id; exact Ia | reflexivity].
Qed.

Lemma diff_inv : forall acts L ar S new,
  SS S -> changed_aux acts (N.of_nat (length L)) S = C -> apply_acts acts L ar = Some new ->
  exists nlh nidx,
    modify_leaves_aux (leaves_at L (below (N.of_nat (length L)) C)) acts C ar = Some nlh /\
    modify_ranges (below (N.of_nat (length L)) C) acts (N.of_nat (length L)) = Some nidx /\
    nidx = below (N.of_nat (length new)) C /\ nlh = leaves_at new nidx /\
    N.of_nat (length new) + N.of_nat (length (below (N.of_nat (length L)) C)) = N.of_nat (length L) + N.of_nat (length nidx) /\
    (forall i, ~ In (N.of_nat i) C -> (i < length L)%nat -> (i < length new)%nat -> nth i new zero_hash = nth i L zero_hash) /\
    (forall k, N.min (N.of_nat (length L)) (N.of_nat (length new)) <= k -> k < N.max (N.of_nat (length L)) (N.of_nat (length new)) -> In k C).
Proof.
  intros acts L ar S new _ EC EA. pose proof (changed_marked acts _ S EC) as Mk.
  destruct (acts_follow acts L ar new Mk EA) as [M1 M2]. destruct (acts_frame acts L ar new Mk EA) as (F1 & F2).
  exists (leaves_at new (below (N.of_nat (length new)) C)), (below (N.of_nat (length new)) C).
  split; [exact M1|]. split; [exact M2|]. split; [reflexivity|]. split; [reflexivity|]. split; [|split; assumption].
  (* C holds the indices between the two lengths, so their number is the difference of the two counts *)
  destruct (N.le_ge_cases (N.of_nat (length L)) (N.of_nat (length new))) as [Le|Le];
    rewrite (below_count C HC _ _ Le) by (intros k K1 K2; apply F2; clear - K1 K2 Le; lia); clear - Le; lia.
Qed.
End Inv.
