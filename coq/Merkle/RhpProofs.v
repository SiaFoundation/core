From Coq Require Import List NArith Arith Bool Lia.
From Sia Require Import Prim.Tok Merkle.Tree Merkle.Forest Merkle.Rhp.
Import ListNotations.

Section RhpProofs.
Variable H : bytes -> bytes.
Notation node := (Rhp.node H).

(* proofAccumulator.insertNode(h, 0) and blake2b.Accumulator.AddLeaf are the binary increment *)
Lemma carry_inc h ds : carry H h ds = inc hash node h ds.
Proof. revert h; induction ds as [|[t|] ds IH]; intros h; simpl; auto; rewrite IH; reflexivity. Qed.

Lemma insert0_inc h ds : insert_node H h 0 ds = inc hash node h ds.
Proof. apply carry_inc. Qed.

Lemma fold_insert0 xs ds :
  fold_left (fun a h => insert_node H h 0 a) xs ds = fold_left (fun d x => inc hash node x d) xs ds.
Proof. revert ds. induction xs as [|x xs IH]; intros ds; cbn [fold_left]; [reflexivity|]. rewrite insert0_inc. apply IH. Qed.

(* so the digits stay the roots of a forest of perfect trees over exactly the leaves added, digit i of height i *)
Theorem acc_digits_repr L ds xs : Repr hash node L ds ->
  Repr hash node (L ++ xs) (fold_left (fun a h => insert_node H h 0 a) xs ds).
Proof. intros HR. rewrite fold_insert0. now apply add_leaves_repr. Qed.

Theorem acc_count L ds : Repr hash node L ds -> length L = value hash 0 ds.
Proof. apply repr_count. Qed.
End RhpProofs.
