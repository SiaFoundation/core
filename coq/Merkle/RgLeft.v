(* the left part of a built range proof has popcount(start) hashes *)
From Coq Require Import List NArith Arith Bool Lia.
From Sia Require Import Prim.Tok Merkle.Rhp.
From Sia Require Import Merkle.RgBits Merkle.RgCount Merkle.RgLoops.
Import ListNotations.
Local Open Scope N_scope.

(* from an aligned position whose alignment exceeds what is left, the subtree sizes are the bits of the remaining
   length, highest first; as many steps as the remaining length has bits are fuel enough *)
Lemma gaps_left start : start < 2 ^ 64 -> forall f i, start - i < 2 ^ N.of_nat f -> i <= start -> (i = 0 \/ start - i < 2 ^ ctz i) ->
  gaps_size f i start = popcount (start - i).
Proof.
  intros Hn. induction f as [|f IH]; intros i Hf Hi Inv; cbn [gaps_size]; [replace (start - i) with 0 by (cbn in Hf; lia); reflexivity|].
  destruct (N.ltb_spec i start) as [L|G]; [|replace (start - i) with 0 by lia; reflexivity].
  set (rem := start - i) in *. assert (Hr : 0 < rem) by (clear - L; lia). pose proof (N.log2_spec rem Hr) as [R1 R2].
  assert (Lc : i = 0 \/ N.log2 rem < ctz i).
  { destruct Inv as [->|Inv]; [left; reflexivity | right]. apply (N.pow_lt_mono_r_iff 2); [lia|]. apply N.le_lt_trans with rem; assumption. }
  destruct (nss_spec i start L Hn) as (h & Es & _ & _ & Fit & _ & Hm). fold rem in Hm.
  assert (Eh : h = N.log2 rem).
  { rewrite Hm. destruct (N.eqb_spec i 0) as [Z|NZ]; [|clear - Lc NZ; lia]. assert (L64 : N.log2 rem < 64) by (apply N.log2_lt_pow2; [exact Hr | clear - Hn; lia]). clear - L64. lia. }
  clear Hm. subst h. rewrite Es, (popcount_top rem Hr). rewrite N.pow_succ_r' in R2.
  assert (E : start - (i + 2 ^ N.log2 rem) = rem - 2 ^ N.log2 rem) by (clear; lia). rewrite IH, E; [reflexivity | rewrite E | exact Fit |].
  - apply N.lt_le_trans with (2 ^ N.log2 rem); [clear - R1 R2; lia|]. apply N.pow_le_mono_r; [discriminate|]. apply N.lt_succ_r, N.log2_lt_pow2; [exact Hr|]. rewrite <- Nat2N.inj_succ. exact Hf.
  - right. rewrite (ctz_add_pow i _ Lc), E. clear - R1 R2. lia.
Qed.
Lemma gaps_left0 s f : s < 2 ^ 64 -> (64 <= f)%nat -> gaps_size f 0 s = popcount s.
Proof.
  intros Hs Hf. rewrite <- (N.sub_0_r s) at 2. apply gaps_left; [exact Hs | | apply N.le_0_l | left; reflexivity].
  rewrite N.sub_0_r. apply N.lt_le_trans with (1 := Hs), N.pow_le_mono_r; lia.
Qed.

Section RLeft.
Variable H : bytes -> bytes.
Notation build_range := (Rhp.build_range H).

Lemma left_count (ls : list hash) start : start <= N.of_nat (length ls) -> N.of_nat (length ls) < 2 ^ 64 ->
  forall k i fb, (N.to_nat (start - i) <= k)%nat -> i <= start -> (i = 0 \/ start - i < 2 ^ ctz i) -> (N.to_nat (start - i) <= fb)%nat ->
    N.of_nat (length (build_range fb ls (N.of_nat (length ls)) i start)) = popcount (start - i).
Proof.
  intros Hs Hn k i fb _ Hi Inv Hfb. rewrite <- (subtrees_build H ls start Hs) by lia. rewrite gaps_length.
  apply gaps_left; [lia | | exact Hi | exact Inv]. apply N.le_lt_trans with (N.of_nat fb); [lia | apply N.pow_gt_lin_r; reflexivity].
Qed.
End RLeft.
