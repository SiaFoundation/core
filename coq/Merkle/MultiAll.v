(* computeMultiproof, multiproofSize and expandMultiproof over all trees of one accumulator state: the per-tree statement
   (MultiProofs.compute_visited) folded over the heights ([fold_all]).  The expansion looks only at the index, the leaf hash
   and the proof length of each leaf ([expand_all_map]), which is what the decoder of V2TransactionsMultiproof has (C18). *)
From Coq Require Import List NArith Lia Bool PeanoNat Sorted Permutation.
From Sia Require Import Merkle.Tree Merkle.Multi Merkle.MultiProofs Merkle.MultiInfer.
Import ListNotations.
Open Scope N_scope.

Section Group.
Variable hash : Type.
Variable node : hash -> hash -> hash.
Notation mleaf := (mleaf hash).
Notation sorted := (sorted hash).

Lemma insert_perm x ls : Permutation (x :: ls) (insert_sorted hash x ls).
Proof.
  induction ls as [|y r IH]; cbn [insert_sorted]; [reflexivity|].
  destruct (ml_idx hash y <=? ml_idx hash x); [|reflexivity].
  rewrite perm_swap. constructor. exact IH.
Qed.
Lemma insert_sorted_ok x ls : sorted ls -> sorted (insert_sorted hash x ls).
Proof.
  unfold MultiProofs.sorted. induction 1 as [|y r Sr IH Hy]; cbn [insert_sorted]; [repeat constructor|].
  destruct (N.leb_spec (ml_idx hash y) (ml_idx hash x)) as [E|E].
  - constructor; [exact IH|].
    eapply Permutation_Forall; [apply insert_perm|]. constructor; [lia | exact Hy].
  - constructor; [constructor; assumption|]. constructor; [lia|].
    eapply Forall_impl; [|exact Hy]. cbn. intros a Ha. lia.
Qed.
Lemma sort_acc_ok ls : forall acc, sorted acc ->
  sorted (fold_left (fun acc x => insert_sorted hash x acc) ls acc) /\
  Permutation (ls ++ acc) (fold_left (fun acc x => insert_sorted hash x acc) ls acc).
Proof.
  induction ls as [|x ls IH]; intros acc S; cbn [fold_left app]; [split; [exact S | reflexivity]|].
  destruct (IH (insert_sorted hash x acc) (insert_sorted_ok x acc S)) as [A B]. split; [exact A|].
  rewrite <- B. rewrite <- insert_perm. apply Permutation_middle.
Qed.
Lemma sort_leaves_ok ls : sorted (sort_leaves hash ls) /\ Permutation ls (sort_leaves hash ls).
Proof.
  destruct (sort_acc_ok ls [] ltac:(constructor)) as [A B]. split; [exact A|]. rewrite app_nil_r in B. exact B.
Qed.

Lemma group_spec ls h : sorted (group hash ls h) /\
  (forall x, In x (group hash ls h) <-> In x ls /\ length (ml_proof hash x) = h).
Proof.
  unfold group. destruct (sort_leaves_ok (filter (fun x => Nat.eqb (length (ml_proof hash x)) h) ls)) as [A B].
  split; [exact A|]. intros x. split.
  - intros I. apply (Permutation_in _ (Permutation_sym B)) in I. apply filter_In in I. destruct I as [I E].
    apply Nat.eqb_eq in E. auto.
  - intros [I E]. apply (Permutation_in _ B). apply filter_In. split; [exact I | apply Nat.eqb_eq; exact E].
Qed.

(* the base of a tree is recovered from any of its leaves *)
Lemma tree_base_ok base idx h k : base = k * pow2 (S h) -> base <= idx < base + pow2 h -> clear_low idx (S h) = base.
Proof.
  intros -> R. unfold clear_low. pose proof (pow2_nz h) as NZ. rewrite pow2_S in *. f_equal. symmetry. apply (N.div_unique idx (2 * pow2 h) k (idx - k * (2 * pow2 h))); lia.
Qed.

(* leaves that agree on index, leaf hash and proof length are the same to the multiproof code *)
Variable f : mleaf -> mleaf.
Hypothesis f_idx : forall x, ml_idx hash (f x) = ml_idx hash x.
Hypothesis f_hash : forall x, ml_hash hash (f x) = ml_hash hash x.
Hypothesis f_len : forall x, length (ml_proof hash (f x)) = length (ml_proof hash x).

Lemma split_mid_map mid ls : split_mid hash mid (map f ls) =
  (map f (fst (split_mid hash mid ls)), map f (snd (split_mid hash mid ls))).
Proof.
  induction ls as [|x r IH]; [reflexivity|]. cbn [map split_mid]. rewrite f_idx.
  destruct (ml_idx hash x <? mid); [|reflexivity].
  rewrite IH. destruct (split_mid hash mid r); reflexivity.
Qed.
Lemma expand_map h : forall base ls pf, expand hash node h base (map f ls) pf = expand hash node h base ls pf.
Proof.
  induction h as [|h IH]; intros base ls pf; destruct ls as [|x r]; try reflexivity.
  - cbn [map expand]. rewrite f_hash, !map_map. reflexivity.
  - change (map f (x :: r)) with (f x :: map f r). cbn [expand].
    change (f x :: map f r) with (map f (x :: r)). rewrite split_mid_map.
    destruct (split_mid hash (base + pow2 h) (x :: r)) as [a b]. cbn [fst snd]. rewrite IH.
    destruct (expand hash node h base a pf) as [[[lr lp] pf1]|]; [rewrite IH|]; reflexivity.
Qed.
Lemma insert_map x acc : insert_sorted hash (f x) (map f acc) = map f (insert_sorted hash x acc).
Proof.
  induction acc as [|y r IH]; [reflexivity|]. cbn [map insert_sorted]. rewrite !f_idx.
  destruct (ml_idx hash y <=? ml_idx hash x); [|reflexivity]. rewrite IH. reflexivity.
Qed.
Lemma sort_map ls : sort_leaves hash (map f ls) = map f (sort_leaves hash ls).
Proof.
  unfold sort_leaves. change (@nil mleaf) with (map f []) at 1. generalize (@nil mleaf).
  induction ls as [|x r IH]; intros acc; [reflexivity|]. cbn [map fold_left]. rewrite insert_map. apply IH.
Qed.
Lemma group_map ls h : group hash (map f ls) h = map f (group hash ls h).
Proof.
  unfold group. rewrite <- sort_map. f_equal.
  induction ls as [|x r IH]; [reflexivity|]. cbn [map filter]. rewrite f_len.
  destruct (Nat.eqb (length (ml_proof hash x)) h); cbn [map]; rewrite IH; reflexivity.
Qed.
Lemma expand_all_map ls pf : expand_all hash node (map f ls) pf = expand_all hash node ls pf.
Proof.
  unfold expand_all. generalize (Some (@nil (nat * list (N * list hash)), pf)). generalize (seq 0 64).
  intros hs. induction hs as [|h hs IH]; intros acc; [reflexivity|]. cbn [fold_left]. rewrite <- IH. f_equal.
  destruct acc as [[out pf']|]; [|reflexivity]. rewrite group_map.
  destruct (group hash ls h) as [|g0 gr]; [reflexivity|].
  change (map f (g0 :: gr)) with (f g0 :: map f gr) at 1. cbv beta iota.
  change (f g0 :: map f gr) with (map f (g0 :: gr)). rewrite expand_map. cbn [map tree_base].
  rewrite f_idx, map_map, (map_ext (fun x => ml_idx hash (f x)) (ml_idx hash) f_idx). reflexivity.
Qed.
End Group.

Section All.
Variable hash : Type.
Variable node : hash -> hash -> hash.
Notation mleaf := (mleaf hash).
Variable T : nat -> ptree hash.
Variable B : nat -> N.

Definition group_ok (ls : list mleaf) (h : nat) : Prop :=
  group hash ls h <> [] ->
  perfect hash (T h) /\ height hash (T h) = h /\ tree_base hash (group hash ls h) h = B h /\
  Forall (valid hash node (T h) (B h)) (group hash ls h).

Definition outs (ls : list mleaf) (hs : list nat) : list (nat * list (N * list hash)) :=
  flat_map (fun h => match group hash ls h with
                     | [] => []
                     | g => [(h, combine (map (ml_idx hash) g) (map (ml_proof hash) g))]
                     end) hs.

Definition stepC (ls : list mleaf) (acc : option (list hash)) (h : nat) : option (list hash) :=
  match acc with
  | None => None
  | Some a => match group hash ls h with
              | [] => Some a
              | g => match compute hash h (tree_base hash g h) g with Some b => Some (a ++ b) | None => None end
              end
  end.
Definition stepS (ls : list mleaf) (acc : nat) (h : nat) : nat :=
  match group hash ls h with [] => acc | g => (acc + msize hash h (tree_base hash g h) g)%nat end.
Definition stepE (ls : list mleaf) (acc : option (list (nat * list (N * list hash)) * list hash)) (h : nat) :=
  match acc with
  | None => None
  | Some (out, pf) =>
    match group hash ls h with
    | [] => Some (out, pf)
    | g => match expand hash node h (tree_base hash g h) g pf with
           | Some (_, ps, pf') => Some (out ++ [(h, combine (map (ml_idx hash) g) ps)], pf')
           | None => None
           end
    end
  end.

Lemma fold_all ls hs : (forall h, In h hs -> group_ok ls h) ->
  forall accC accN accO rest, exists mp,
    fold_left (stepC ls) hs (Some accC) = Some (accC ++ mp) /\
    fold_left (stepS ls) hs accN = (accN + length mp)%nat /\
    fold_left (stepE ls) hs (Some (accO, mp ++ rest)) = Some (accO ++ outs ls hs, rest).
Proof.
  induction hs as [|h hs IH]; intros OK accC accN accO rest.
  - exists []. cbn [fold_left outs flat_map app length]. rewrite !app_nil_r, Nat.add_0_r. repeat split.
  - assert (OKt : forall h', In h' hs -> group_ok ls h') by (intros h' I; apply OK; right; exact I).
    pose proof (OK h (or_introl eq_refl)) as OKh. unfold group_ok in OKh.
    cbn [fold_left outs flat_map]. fold (outs ls hs). unfold stepC at 2, stepS at 2, stepE at 2.
    destruct (group hash ls h) as [|g0 gr] eqn:G; [apply IH; exact OKt|].
    destruct (OKh ltac:(discriminate)) as (P & Hh & Bh & V).
    destruct (group_spec hash ls h) as [Sg Mg]. rewrite G in Sg, Mg.
    assert (FP : map (fun x => firstn h (ml_proof hash x)) (g0 :: gr) = map (ml_proof hash) (g0 :: gr)).
    { apply map_ext_in. intros x I. apply firstn_all2. apply Mg in I. lia. }
    destruct (compute_visited hash node (T h) P (B h) (g0 :: gr) ltac:(discriminate) Sg V) as (mph & Ch & Lh & Xh). rewrite Hh in *.
    destruct (IH OKt (accC ++ mph) (accN + length mph)%nat (accO ++ [(h, combine (map (ml_idx hash) (g0 :: gr)) (map (ml_proof hash) (g0 :: gr)))]) rest)
      as (mp & A1 & A2 & A3).
    exists (mph ++ mp). cbv beta iota. rewrite Bh, Ch, <- app_assoc, Xh, FP.
    repeat split.
    + rewrite app_assoc. exact A1.
    + rewrite <- Lh, A2, app_length. lia.
    + rewrite A3, <- app_assoc. reflexivity.
Qed.

(* every leaf comes with the sibling path of its position in the tree of its height; trees are aligned *)
Definition leaf_ok (x : mleaf) : Prop :=
  let h := length (ml_proof hash x) in
  (h < 64)%nat /\ perfect hash (T h) /\ height hash (T h) = h /\ (exists k, B h = k * pow2 (S h)) /\
  valid hash node (T h) (B h) x.

Lemma group_ok_of ls : Forall leaf_ok ls -> forall h, group_ok ls h.
Proof.
  intros F h. unfold group_ok. destruct (group hash ls h) as [|x0 gr] eqn:G; [congruence | intros _].
  destruct (group_spec hash ls h) as [_ Mg]. rewrite G in Mg. rewrite Forall_forall in F.
  assert (I0 : In x0 ls /\ length (ml_proof hash x0) = h) by (apply Mg; left; reflexivity).
  destruct I0 as [I0 L0]. pose proof (F x0 I0) as K. unfold leaf_ok in K. rewrite L0 in K.
  destruct K as (_ & P & Hh & (k & Bk) & V).
  split; [exact P|]. split; [exact Hh|]. split.
  - cbn [tree_base]. destruct V as (R & _). rewrite Hh in R. eapply tree_base_ok; eauto.
  - apply Forall_forall. intros y Iy. apply Mg in Iy. destruct Iy as [Iy Ly].
    pose proof (F y Iy) as K. unfold leaf_ok in K. rewrite Ly in K. tauto.
Qed.

Definition lookup_proof (out : list (nat * list (N * list hash))) (h : nat) (i : N) : option (list hash) :=
  match find (fun e => Nat.eqb (fst e) h) out with
  | Some (_, l) => match find (fun e => N.eqb (fst e) i) l with Some (_, p) => Some p | None => None end
  | None => None
  end.

Lemma find_outs ls hs h : In h hs -> group hash ls h <> [] ->
  find (fun e => Nat.eqb (fst e) h) (outs ls hs) =
  Some (h, combine (map (ml_idx hash) (group hash ls h)) (map (ml_proof hash) (group hash ls h))).
Proof.
  induction hs as [|h' hs IH]; intros I NE; [contradiction|].
  cbn [outs flat_map]. fold (outs ls hs).
  destruct (Nat.eq_dec h' h) as [->|Ne].
  - destruct (group hash ls h) as [|g0 gr]; [congruence|]. cbn [app find fst]. rewrite Nat.eqb_refl. reflexivity.
  - destruct I as [|I]; [congruence|].
    destruct (group hash ls h') as [|g0 gr]; cbn [app find fst]; [apply IH; auto|].
    assert (E : Nat.eqb h' h = false) by (apply Nat.eqb_neq; exact Ne). rewrite E. apply IH; auto.
Qed.

Lemma find_combine (g : list mleaf) (P : mleaf -> list hash) i :
  (exists x, In x g /\ ml_idx hash x = i) ->
  exists y, In y g /\ ml_idx hash y = i /\
    find (fun e => N.eqb (fst e) i) (combine (map (ml_idx hash) g) (map P g)) = Some (i, P y).
Proof.
  induction g as [|a g IH]; intros (x & I & E); [contradiction|].
  cbn [map combine find fst]. destruct (N.eqb_spec (ml_idx hash a) i) as [Ea|Na].
  - exists a. split; [left; reflexivity|]. split; [exact Ea|]. rewrite Ea. reflexivity.
  - destruct I as [->|I]; [congruence|]. destruct (IH (ex_intro _ x (conj I E))) as (y & Iy & Ey & F).
    exists y. split; [right; exact Iy|]. split; assumption.
Qed.

Theorem multiproof_codec_lossless (f : mleaf -> mleaf) ls rest :
  (forall x, ml_idx hash (f x) = ml_idx hash x) -> (forall x, ml_hash hash (f x) = ml_hash hash x) ->
  (forall x, length (ml_proof hash (f x)) = length (ml_proof hash x)) ->
  Forall leaf_ok ls ->
  exists mp out, compute_all hash ls = Some mp /\ length mp = msize_all hash ls /\
    expand_all hash node (map f ls) (mp ++ rest) = Some (out, rest) /\
    forall x, In x ls -> lookup_proof out (length (ml_proof hash x)) (ml_idx hash x) = Some (ml_proof hash x).
Proof.
  intros Fi Fh Fl OK.
  destruct (fold_all ls (seq 0 64) (fun h _ => group_ok_of ls OK h) [] 0%nat [] rest) as (mp & A1 & A2 & A3).
  exists mp, (outs ls (seq 0 64)). split; [exact A1|]. split; [symmetry; exact A2|]. split.
  - rewrite (expand_all_map hash node f Fi Fh Fl). exact A3.
  - intros x I. rewrite Forall_forall in OK. pose proof (OK x I) as K. unfold leaf_ok in K.
    set (h := length (ml_proof hash x)) in *. destruct K as (H64 & P & Hh & _ & V).
    destruct (group_spec hash ls h) as [_ Mg].
    assert (Ig : In x (group hash ls h)) by (apply Mg; split; [exact I | reflexivity]).
    unfold lookup_proof. rewrite (find_outs ls (seq 0 64) h); [| apply in_seq; lia | intros E; rewrite E in Ig; contradiction].
    destruct (find_combine (group hash ls h) (ml_proof hash) (ml_idx hash x) (ex_intro _ x (conj Ig eq_refl))) as (y & Iy & Ey & Fy).
    rewrite Fy. f_equal.
    (* two leaves of the same tree with the same index carry the same sibling path *)
    apply Mg in Iy. destruct Iy as [Iy Ly]. pose proof (OK y Iy) as Ky. unfold leaf_ok in Ky. rewrite Ly in Ky.
    destruct Ky as (_ & _ & _ & _ & (_ & _ & Vy)). destruct V as (_ & _ & Vx).
    rewrite Hh in Vx, Vy. rewrite firstn_all2 in Vx by (fold h; lia). rewrite firstn_all2 in Vy by lia.
    rewrite Vx, Vy, Ey. reflexivity.
Qed.
End All.
