(* Soundness of sector-range proofs, assembled. *)
From Coq Require Import List NArith Arith Bool Lia.
From Sia Require Import Prim.Tok Merkle.Tree Merkle.Forest Merkle.Rhp Merkle.RhpProofs Merkle.RhpRoot.
From Sia Require Import Merkle.RgLoops Merkle.RgComplete Merkle.RgSound.
Import ListNotations.
Local Open Scope N_scope.

Section RSound2.
Variable H : bytes -> bytes.
Notation node := (Rhp.node H).
Notation mroot := (Rhp.mroot H).

Lemma verify_p proof roots s e n root : n <> 0 ->
  verify_range_proof H proof roots s e n root =
  if negb (N.of_nat (length proof) =? range_proof_size n s e) then false
  else hash_eqb (match pverify_root node proof roots s e with Some r => r | None => zero_hash end) root.
Proof.
  intros Hn. unfold verify_range_proof. destruct (N.eqb_spec n 0); [contradiction|].
  destruct (negb (N.of_nat (length proof) =? range_proof_size n s e)); [reflexivity|].
  unfold pverify_root, pverify_state. rewrite range_p. destruct (pins_range node FUEL [] proof 0 s) as [a1 r1].
  rewrite fold_p, range_p. destruct (pins_range node FUEL (fold_left (fun a h => pins node h 0 a) roots a1) r1 e (Rhp.W - 1)) as [a3 r3].
  cbn [fst]. unfold pa_root. rewrite rootaux_p. reflexivity.
Qed.
End RSound2.

(* a non-empty list of covered roots leaves the accumulator non-empty, so the verifier has a root *)
Section NonEmpty.
Variable X : Type.
Variable nd : X -> X -> X.
Definition has_some (ds : list (option X)) : bool := existsb (fun d => match d with Some _ => true | None => false end) ds.
Lemma carry_some h ds : has_some (pcarry nd h ds) = true.
Proof. revert h. induction ds as [|[t|] ds IH]; intros h; cbn [pcarry has_some existsb]; [reflexivity | apply IH | reflexivity]. Qed.
Lemma ins_some h k : forall ds, has_some (pins nd h k ds) = true.
Proof.
  induction k as [|k IH]; intros ds; cbn [pins]; [apply carry_some|]. destruct ds as [|d ds]; cbn [has_some existsb].
  - exact (IH []).
  - destruct d; [reflexivity | exact (IH ds)].
Qed.
Lemma range_some fuel : forall acc proof i j, has_some acc = true -> has_some (fst (pins_range nd fuel acc proof i j)) = true.
Proof.
  induction fuel as [|f IH]; intros acc proof i j Ha; cbn [pins_range]; [exact Ha|].
  destruct proof; [exact Ha|]. destruct (i <? j); [|exact Ha]. cbv zeta. apply IH. apply ins_some.
Qed.
Lemma root_some ds : forall acc, has_some ds = true \/ acc <> None -> proot_aux nd acc ds <> None.
Proof.
  induction ds as [|[t|] ds IH]; intros acc Hs; cbn [proot_aux has_some existsb] in *.
  - destruct Hs as [Hs|Hs]; [discriminate | exact Hs].
  - apply IH. right. discriminate.
  - apply IH. exact Hs.
Qed.
Lemma verify_some proof roots s e : roots <> [] -> pverify_root nd proof roots s e <> None.
Proof.
  intros Hr. unfold pverify_root, pverify_state. destruct (pins_range nd FUEL [] proof 0 s) as [a1 r1].
  assert (F : has_some (fold_left (fun a h => pins nd h 0 a) roots a1) = true).
  { destruct roots as [|x rs]; [contradiction|]. cbn [fold_left]. generalize (ins_some x 0%nat a1). generalize (pins nd x 0 a1). clear.
    induction rs as [|y rs IH]; intros a Ha; cbn [fold_left]; [exact Ha|]. apply IH. apply ins_some. }
  pose proof (range_some FUEL _ r1 e (Rhp.W - 1) F) as G. destruct (pins_range nd FUEL (fold_left (fun a h => pins nd h 0 a) roots a1) r1 e (Rhp.W - 1)) as [a3 r3].
  cbn [fst] in *. apply root_some. left. exact G.
Qed.
End NonEmpty.

Section Final.
Variable H : bytes -> bytes.
Notation node := (Rhp.node H).
Notation mroot := (Rhp.mroot H).
Notation build_range := (Rhp.build_range H).

Lemma honest_left (ls : list hash) start end_ :
  let n := N.of_nat (length ls) in
  0 < n <= 2 ^ 30 -> start < end_ -> end_ <= n ->
  pverify_left node (build_range_proof H ls start end_) (slice ls start (end_ - start)) start end_ = [].
Proof.
  intros n Hn Hse Hen. destruct (honest_run H ls start end_ Hn Hse Hen) as (_ & accL & pR & accR & IL & IR & _).
  unfold pverify_left, pverify_state. rewrite <- (range_p H), IL, <- (fold_p H), <- (range_p H), IR. reflexivity.
Qed.

(* the pair argument over abstract lists: two runs of the verifier with equal roots, the second consuming its whole proof *)
Lemma sound_core (proof roots p0 r0 : list hash) start end_ (v : hash) :
  length proof = length p0 -> length roots = length r0 ->
  pverify_root node proof roots start end_ = Some v -> pverify_root node p0 r0 start end_ = Some v ->
  pverify_left node p0 r0 start end_ = [] ->
  (roots = r0 /\ proof = p0) \/ NodeCollision H.
Proof.
  intros LP LR E1 E2 HH.
  rewrite <- (zip_f1 proof p0 LP), <- (zip_f1 roots r0 LR), <- (hom_verify _ _ (nd2 H) node f1 (f1_hom H)) in E1.
  rewrite <- (zip_f2 proof p0 LP), <- (zip_f2 roots r0 LR), <- (hom_verify _ _ (nd2 H) node f2 (f2_hom H)) in E2.
  rewrite <- (zip_f2 proof p0 LP), <- (zip_f2 roots r0 LR), <- (hom_left _ _ (nd2 H) node f2 (f2_hom H)) in HH. apply map_eq_nil in HH.
  pose proof (verify_inv H _ _ start end_ (zip_good H proof p0) (zip_good H roots r0)) as Inv.
  destruct (pverify_root (nd2 H) (zipP proof p0) (zipP roots r0) start end_) as [w|]; [|discriminate].
  injection E1 as E1. injection E2 as E2. destruct Inv as [Gw Pw].
  destruct (Gw (eq_trans E1 (eq_sym E2))) as [Sw|C]; [left | right; exact C].
  destruct (Pw Sw) as [LRR LPP]. split; apply zip_lall; auto.
Qed.

Lemma verify_true proof roots s e n root : n <> 0 -> roots <> [] ->
  verify_range_proof H proof roots s e n root = true ->
  N.of_nat (length proof) = range_proof_size n s e /\ pverify_root node proof roots s e = Some root.
Proof.
  intros Hn Hr Hv. rewrite (verify_p H) in Hv by exact Hn. apply guard_true in Hv. destruct Hv as [Lp Hv].
  split; [apply N.eqb_eq; exact Lp|]. apply hash_eqb_true in Hv.
  pose proof (verify_some _ node proof roots s e Hr) as Ns.
  destruct (pverify_root node proof roots s e); [rewrite Hv; reflexivity | contradiction].
Qed.

Lemma honest_root (ls : list hash) start end_ :
  0 < N.of_nat (length ls) <= 2 ^ 30 -> start < end_ -> end_ <= N.of_nat (length ls) ->
  N.of_nat (length (build_range_proof H ls start end_)) = range_proof_size (N.of_nat (length ls)) start end_ /\
  pverify_root node (build_range_proof H ls start end_) (slice ls start (end_ - start)) start end_ = Some (mroot ls).
Proof.
  intros Hn Hse Hen.
  pose proof (range_proof_complete H ls start end_ Hn Hse Hen) as Hc.
  apply verify_true in Hc; [exact Hc | lia |].
  intros E. apply (f_equal (@length hash)) in E. rewrite slice_length in E by lia. cbn in E. lia.
Qed.

(* soundness: whatever VerifySectorRangeProof accepts against the plain root of a list of at most 2^30 roots, for a range of
   the right length, is the list's own roots for that range, with exactly the proof the builder produces -- or two
   different pairs with the same node hash are in hand *)
Theorem range_proof_sound (ls : list hash) start end_ proof roots :
  0 < N.of_nat (length ls) <= 2 ^ 30 -> start < end_ -> end_ <= N.of_nat (length ls) -> N.of_nat (length roots) = end_ - start ->
  verify_range_proof H proof roots start end_ (N.of_nat (length ls)) (mroot ls) = true ->
  (roots = slice ls start (end_ - start) /\ proof = build_range_proof H ls start end_) \/ NodeCollision H.
Proof.
  intros Hn Hse Hen Hlr Hv.
  destruct (honest_root ls start end_ Hn Hse Hen) as [L2 V2].
  pose proof (honest_left ls start end_ Hn Hse Hen) as HH.
  assert (LR : length roots = length (slice ls start (end_ - start))) by (rewrite slice_length by lia; lia).
  assert (Rne : roots <> []) by (destruct roots; [cbn in Hlr; lia | discriminate]).
  apply verify_true in Hv; [|lia | exact Rne].
  destruct Hv as [L1 V1].
  assert (LP : length proof = length (build_range_proof H ls start end_)) by lia.
  exact (sound_core proof roots (build_range_proof H ls start end_) (slice ls start (end_ - start)) start end_ (mroot ls) LP LR V1 V2 HH).
Qed.
End Final.

Lemma range_collision_same (H : bytes -> bytes) : NodeCollision H <-> Tree.NodeCollision hash (Rhp.node H).
Proof. unfold NodeCollision, Tree.NodeCollision. split; intros C; exact C. Qed.

(* single leaves of a 65536-leaf sector: instances of the range theorems *)
Section Leaf.
Variable H : bytes -> bytes.
Theorem leaf_proof_complete (ls : list hash) i : N.of_nat (length ls) = 65536 -> i < 65536 ->
  verify_range_proof H (build_range_proof H ls i (i + 1)) [nth (N.to_nat i) ls zero_hash] i (i + 1) 65536 (Rhp.mroot H ls) = true.
Proof.
  intros L Hi. pose proof (range_proof_complete H ls i (i + 1)) as C. cbv zeta in C. rewrite L in C.
  replace (i + 1 - i) with 1 in C by lia. rewrite slice_one in C by lia. apply C; lia.
Qed.
Theorem leaf_proof_sound (ls : list hash) i proof leaf : N.of_nat (length ls) = 65536 -> i < 65536 ->
  verify_range_proof H proof [leaf] i (i + 1) 65536 (Rhp.mroot H ls) = true ->
  (leaf = nth (N.to_nat i) ls zero_hash /\ proof = build_range_proof H ls i (i + 1)) \/ NodeCollision H.
Proof.
  intros L Hi V. pose proof (range_proof_sound H ls i (i + 1) proof [leaf]) as S. rewrite L in S.
  replace (i + 1 - i) with 1 in S by lia. rewrite slice_one in S by lia.
  destruct (S ltac:(lia) ltac:(lia) ltac:(lia) ltac:(reflexivity) V) as [[E1 E2]|C]; [left | right; exact C]. split; [inversion E1; reflexivity | exact E2].
Qed.
End Leaf.
