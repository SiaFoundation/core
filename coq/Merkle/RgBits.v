(* Bit facts behind rhp/v2 nextSubtreeSize: trailing zeros, alignment, powers of two. *)
From Coq Require Import List NArith Arith Bool Lia.
From Sia Require Import Prim.Tok Merkle.Rhp.
Import ListNotations.
Local Open Scope N_scope.

(* bits.TrailingZeros64 *)
Fixpoint ctz_pos (p : positive) : N := match p with xO q => 1 + ctz_pos q | _ => 0 end.
Definition ctz (x : N) : N := match x with N0 => 64 | Npos p => ctz_pos p end.

Lemma pow2_pos k : 0 < 2 ^ k.
Proof. apply N.neq_0_lt_0, N.pow_nonzero. discriminate. Qed.

Lemma bitlen_le x k : bitlen x <= k <-> x < 2 ^ k.
Proof.
  unfold bitlen. destruct (N.eqb_spec x 0) as [->|NZ]; [split; intros _; [apply pow2_pos | apply N.le_0_l]|].
  rewrite N.add_1_r, N.le_succ_l. symmetry. apply N.log2_lt_pow2. lia.
Qed.

Lemma ctz_pos_spec p : exists q, Npos p = 2 ^ ctz_pos p * (2 * q + 1).
Proof.
  induction p as [p IH|p IH|]; cbn [ctz_pos].
  - exists (Npos p). reflexivity.
  - destruct IH as (q & E). exists q. rewrite N.pow_add_r, <- N.mul_assoc, <- E. reflexivity.
  - exists 0. reflexivity.
Qed.
Lemma ctz_spec x : 0 < x -> exists q, x = 2 ^ ctz x * (2 * q + 1).
Proof. destruct x as [|p]; [lia|]. intros _. apply ctz_pos_spec. Qed.
Lemma ctz_double x : 0 < x -> ctz (2 * x) = 1 + ctz x.
Proof. destruct x; [lia | reflexivity]. Qed.
Lemma ctz_unique t q : ctz (2 ^ t * (2 * q + 1)) = t.
Proof.
  induction t as [|t IH] using N.peano_ind.
  - rewrite N.mul_1_l. destruct q; reflexivity.
  - rewrite N.pow_succ_r', <- N.mul_assoc, ctz_double, IH; [apply N.add_1_l|].
    apply N.mul_pos_pos; [apply pow2_pos | lia].
Qed.
Lemma ctz_pow2 h : ctz (2 ^ h) = h.
Proof. rewrite <- (N.mul_1_r (2 ^ h)). apply (ctz_unique h 0). Qed.
Lemma ctz_le x : 0 < x -> 2 ^ ctz x <= x.
Proof.
  intros Hx. destruct (ctz_spec x Hx) as (q & E). rewrite E at 2. rewrite <- (N.mul_1_r (2 ^ ctz x)) at 1. apply N.mul_le_mono_l. lia.
Qed.
Lemma ctz_lt x k : 0 < x < 2 ^ k -> ctz x < k.
Proof. intros [Hpos Hk]. apply (N.pow_lt_mono_r_iff 2); [lia|]. apply N.le_lt_trans with (2 := Hk), ctz_le, Hpos. Qed.
Lemma ctz_mult x h : 0 < x -> h <= ctz x -> exists k, x = k * 2 ^ h.
Proof.
  intros Hx Hh. destruct (ctz_spec x Hx) as (q & E). exists ((2 * q + 1) * 2 ^ (ctz x - h)).
  rewrite <- N.mul_assoc, <- N.pow_add_r, N.sub_add, N.mul_comm by exact Hh. exact E.
Qed.
Lemma ctz_divides x h : 0 < x -> (exists k, x = k * 2 ^ h) -> h <= ctz x.
Proof.
  intros Hx (k & ->). destruct (ctz_spec k) as (q & E); [destruct k; [discriminate Hx | reflexivity]|].
  set (c := ctz k) in E. rewrite E. replace (2 ^ c * (2 * q + 1) * 2 ^ h) with (2 ^ (c + h) * (2 * q + 1)) by (rewrite N.pow_add_r; ring).
  rewrite ctz_unique. lia.
Qed.
Lemma ctz_split x k : 0 < x < 2 ^ k -> exists q j, x = 2 ^ ctz x * (2 * q + 1) /\ 2 ^ k = 2 ^ ctz x * (2 * 2 ^ j) /\ 2 * q + 1 < 2 * 2 ^ j.
Proof.
  intros Hx. pose proof (ctz_lt x k Hx) as Lt. destruct Hx as [Hpos Hk]. destruct (ctz_spec x Hpos) as (q & E). set (c := ctz x) in *. exists q, (k - c - 1).
  assert (Ek : 2 ^ k = 2 ^ c * (2 * 2 ^ (k - c - 1))) by (rewrite <- N.pow_succ_r', <- N.pow_add_r; f_equal; lia).
  split; [exact E|]. split; [exact Ek|]. rewrite Ek, E in Hk. apply N.mul_lt_mono_pos_l in Hk; [exact Hk | apply pow2_pos].
Qed.
Lemma ctz_fit x k : 0 < x < 2 ^ k -> x + 2 ^ ctz x <= 2 ^ k.
Proof.
  intros Hx. destruct (ctz_split x k Hx) as (q & j & E & -> & Lt). rewrite E at 1. rewrite <- (N.mul_1_r (2 ^ ctz x)) at 2.
  rewrite <- N.mul_add_distr_l. apply N.mul_le_mono_l. lia.
Qed.

Lemma ctz_add x y : 0 < x -> y = 0 \/ ctz x < ctz y -> ctz (x + y) = ctz x.
Proof.
  intros Hx [->|Lt]; [rewrite N.add_0_r; reflexivity|]. destruct (N.eq_dec y 0) as [->|NZ]; [rewrite N.add_0_r; reflexivity|].
  destruct (ctz_spec x Hx) as (q & Ex), (ctz_spec y ltac:(lia)) as (r & Ey). set (c := ctz x) in *. set (d := ctz y) in *.
  replace (x + y) with (2 ^ c * (2 * (q + 2 ^ (d - c - 1) * (2 * r + 1)) + 1)); [apply ctz_unique|].
  rewrite Ex, Ey. replace d with (c + N.succ (d - c - 1)) at 2 by lia. rewrite N.pow_add_r, N.pow_succ_r'. ring.
Qed.
Lemma ctz_add_pow i b : i = 0 \/ b < ctz i -> ctz (i + 2 ^ b) = b.
Proof. intros Hb. rewrite N.add_comm, ctz_add, ctz_pow2; [reflexivity | apply pow2_pos | rewrite ctz_pow2; exact Hb]. Qed.

Lemma ldiff_small q k : q < 2 ^ k -> N.ldiff q (N.ones k) = 0.
Proof.
  intros Hq. apply N.bits_inj. intros i. rewrite N.ldiff_spec, N.bits_0.
  destruct (N.lt_ge_cases i k) as [L|G].
  - rewrite N.ones_spec_low by lia. apply andb_false_r.
  - destruct (N.eq_dec q 0) as [->|NZ]; [rewrite N.bits_0; reflexivity|].
    rewrite (N.bits_above_log2 q i); [reflexivity|]. assert (N.log2 q < k) by (apply N.log2_lt_pow2; lia). lia.
Qed.
Lemma land_complement q k : q < 2 ^ k -> N.land q (N.ones k - q) = 0.
Proof.
  intros Hq. rewrite (N.sub_nocarry_ldiff (N.ones k) q (ldiff_small q k Hq)). rewrite N.land_comm. apply N.land_ldiff.
Qed.
Lemma land_odd a b : N.land (2 * a + 1) (2 * b + 1) = 2 * N.land a b + 1.
Proof.
  apply N.bits_inj. intros i. rewrite N.land_spec. destruct (N.zero_or_succ i) as [->|(j & ->)].
  - rewrite !N.testbit_odd_0. reflexivity.
  - rewrite !N.testbit_odd_succ by apply N.le_0_l. symmetry. apply N.land_spec.
Qed.
(* x & -x isolates the lowest set bit: above it the two are complements *)
Lemma land_neg x k : 0 < x < 2 ^ k -> N.land x (2 ^ k - x) = 2 ^ ctz x.
Proof.
  intros Hx. destruct (ctz_split x k Hx) as (q & j & E & -> & Lt). set (t := ctz x) in *. clearbody t. subst x. rewrite <- N.mul_sub_distr_l.
  replace (2 * 2 ^ j - (2 * q + 1)) with (2 * (N.ones j - q) + 1) by (rewrite N.ones_equiv; lia).
  rewrite !(N.mul_comm (2 ^ t)), <- !N.shiftl_mul_pow2, <- N.shiftl_land, land_odd, land_complement by lia. apply N.shiftl_1_l.
Qed.
Lemma tz64_ctz x : 0 < x < 2 ^ 64 -> tz64 x = ctz x.
Proof.
  intros Hx. unfold tz64, Rhp.W. destruct (N.eqb_spec x 0); [lia|]. rewrite land_neg by exact Hx. apply N.log2_pow2, N.le_0_l.
Qed.

Lemma tz64_pow2 h : h < 64 -> tz64 (2 ^ h) = h.
Proof. intros Hh. rewrite tz64_ctz; [apply ctz_pow2 | split; [apply pow2_pos | apply N.pow_lt_mono_r; [reflexivity | exact Hh]]]. Qed.

Lemma nss_spec i j : i < j -> j < 2 ^ 64 ->
  exists h, next_subtree_size i j = 2 ^ h /\ h < 64 /\ (exists k, i = k * 2 ^ h) /\ i + 2 ^ h <= j /\ tz64 (2 ^ h) = h /\
            h = N.min (if i =? 0 then 64 else ctz i) (N.log2 (j - i)).
Proof.
  intros Hij Hj. unfold next_subtree_size, bitlen. destruct (N.eqb_spec (j - i) 0) as [|_]; [lia|].
  rewrite N.add_sub. set (m := N.log2 (j - i)).
  pose proof (N.log2_spec (j - i) ltac:(lia)) as [M1 _]. fold m in M1.
  assert (Hm : m < 64) by (apply N.log2_lt_pow2; lia).
  assert (TZ : tz64 i = if i =? 0 then 64 else ctz i).
  { destruct (N.eqb_spec i 0) as [->|NZ]; [reflexivity | apply tz64_ctz; lia]. }
  rewrite TZ. set (t := if i =? 0 then 64 else ctz i).
  assert (Div : forall h, h <= t -> exists k, i = k * 2 ^ h).
  { intros h Hh. unfold t in Hh. destruct (N.eqb_spec i 0) as [->|NZ]; [exists 0; reflexivity | apply ctz_mult; lia]. }
  destruct (N.ltb_spec m t) as [L|G].
  - exists m. split; [reflexivity|]. split; [exact Hm|]. split; [apply Div; lia|]. split; [lia|]. split; [apply tz64_pow2; exact Hm|]. lia.
  - assert (Ht : t < 64) by lia. assert (2 ^ t <= 2 ^ m) by (apply N.pow_le_mono_r; lia).
    exists t. split; [reflexivity|]. split; [exact Ht|]. split; [apply Div; lia|]. split; [lia|]. split; [apply tz64_pow2; exact Ht|]. lia.
Qed.

Lemma nss_aligned i j : 0 < i -> i + 2 ^ ctz i <= j -> j < 2 ^ 64 -> next_subtree_size i j = 2 ^ ctz i.
Proof.
  intros Hi Fit Hj. pose proof (pow2_pos (ctz i)). destruct (nss_spec i j ltac:(lia) Hj) as (h & -> & _ & _ & _ & _ & ->).
  rewrite (proj2 (N.eqb_neq i 0)) by lia. f_equal. apply N.min_l, N.log2_le_pow2; lia.
Qed.

(* subtree sizes to the right of the range: the largest subtree aligned at i, for the builder (bound MaxInt32) and the
   verifier (bound MaxUint64) alike *)
Lemma nss_right i n : 0 < i -> i < n -> n <= 2 ^ 30 ->
  next_subtree_size i (2 ^ 31 - 1) = 2 ^ ctz i /\ next_subtree_size i (Rhp.W - 1) = 2 ^ ctz i /\ ctz i < 30 /\ (exists k, i = k * 2 ^ ctz i) /\ tz64 (2 ^ ctz i) = ctz i.
Proof.
  intros Hi Hin Hn. pose proof (ctz_le i Hi) as Le. assert (C30 : ctz i < 30) by (apply ctz_lt; lia).
  split; [apply nss_aligned; lia|]. split; [apply nss_aligned; unfold Rhp.W; lia|]. split; [exact C30|].
  split; [apply ctz_mult; [exact Hi | apply N.le_refl] | apply tz64_pow2; lia].
Qed.
