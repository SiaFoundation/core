(* Slices of a leaf list, and the loops of rhp/v2 BuildSectorRangeProof and VerifySectorRangeProof: outside their range,
   with spare fuel, and one step on the representation invariant (repr_block). *)
From Coq Require Import List NArith Arith Bool Lia.
From Sia Require Import Prim.Tok Merkle.Tree Merkle.Forest Merkle.Rhp Merkle.RhpProofs Merkle.RhpRoot.
From Sia Require Import Merkle.RgBits Merkle.RgStruct.
Import ListNotations.
Local Open Scope N_scope.

Lemma pow_nat h : N.to_nat (2 ^ h) = (2 ^ N.to_nat h)%nat.
Proof. exact (N2Nat.inj_pow 2 h). Qed.

Lemma skipn_add {A} (l : list A) : forall a b, skipn (a + b) l = skipn b (skipn a l).
Proof. induction l as [|x l IH]; intros a b; [rewrite !skipn_nil; reflexivity|]. destruct a; [reflexivity|]. cbn [Nat.add skipn]. apply IH. Qed.
Lemma firstn_add {A} (l : list A) : forall a b, firstn (a + b) l = firstn a l ++ firstn b (skipn a l).
Proof. induction l as [|x l IH]; intros a b; [rewrite skipn_nil, !firstn_nil; reflexivity|]. destruct a; [reflexivity|]. cbn [Nat.add firstn skipn app]. f_equal. apply IH. Qed.

Lemma slice_length (ls : list hash) i s : i + s <= N.of_nat (length ls) -> length (slice ls i s) = N.to_nat s.
Proof. intros Hb. unfold slice. rewrite firstn_length, skipn_length. lia. Qed.
Lemma slice_app (ls : list hash) i s t : slice ls i s ++ slice ls (i + s) t = slice ls i (s + t).
Proof. unfold slice. rewrite !N2Nat.inj_add, skipn_add. symmetry. apply firstn_add. Qed.
Lemma firstn_slice (ls : list hash) i s : firstn (N.to_nat i) ls ++ slice ls i s = firstn (N.to_nat (i + s)) ls.
Proof. exact (slice_app ls 0 i s). Qed.
Lemma slice_all (ls : list hash) s : N.of_nat (length ls) <= s -> slice ls 0 s = ls.
Proof. intros Hs. apply firstn_all2. lia. Qed.
Lemma slice_one (ls : list hash) i : (N.to_nat i < length ls)%nat -> slice ls i 1 = [nth (N.to_nat i) ls zero_hash].
Proof.
  intros L. unfold slice. change (N.to_nat 1) with 1%nat. revert ls L. generalize (N.to_nat i) as k.
  induction k as [|k IH]; intros [|x ls] L; cbn in L; try lia; [reflexivity|]. cbn [skipn nth]. apply IH. lia.
Qed.
Lemma slice_app_left (L1 L2 : list hash) x s : x + s <= N.of_nat (length L1) -> slice (L1 ++ L2) x s = slice L1 x s.
Proof.
  intros B. unfold slice. rewrite skipn_app, firstn_app, skipn_length.
  replace (N.to_nat s - (length L1 - N.to_nat x))%nat with 0%nat by lia. apply app_nil_r.
Qed.
Lemma slice_app_right (L1 L2 : list hash) x s : slice (L1 ++ L2) (N.of_nat (length L1) + x) s = slice L2 x s.
Proof. unfold slice. rewrite N2Nat.inj_add, Nat2N.id, skipn_add, skipn_app, skipn_all, Nat.sub_diag. reflexivity. Qed.

Section RLoops.
Variable H : bytes -> bytes.
Notation node := (Rhp.node H).
Notation mroot := (Rhp.mroot H).
Notation build_range := (Rhp.build_range H).
Notation insert_range := (Rhp.insert_range H).
Notation insert_node := (Rhp.insert_node H).

Lemma build_range_nil f (ls : list hash) n i j : j <= i \/ n <= i -> build_range f ls n i j = [].
Proof.
  intros G. destruct f; cbn [Rhp.build_range]; [reflexivity|].
  destruct (N.ltb_spec i j); [destruct (N.ltb_spec i n); [lia | reflexivity] | reflexivity].
Qed.
Lemma subtrees_nil (ls : list hash) f i j : j <= i -> Rhp.range_subtrees H f ls i j = [].
Proof. intros G. destruct f; cbn [Rhp.range_subtrees]; [reflexivity|]. destruct (N.ltb_spec i j); [lia | reflexivity]. Qed.
Lemma subtrees_off_nil (lv : list hash) off f i j : j <= i -> Rhp.range_subtrees_off H f lv off i j = [].
Proof. intros G. destruct f; cbn [Rhp.range_subtrees_off]; [reflexivity|]. destruct (N.ltb_spec i j); [lia | reflexivity]. Qed.
Lemma insert_range_done f acc p i j : j <= i -> insert_range f acc p i j = (acc, p).
Proof. intros G. destruct f, p; cbn [Rhp.insert_range]; try reflexivity. destruct (N.ltb_spec i j); [lia | reflexivity]. Qed.
Lemma insert_range_nil f acc i j : insert_range f acc [] i j = (acc, []).
Proof. destruct f; reflexivity. Qed.

Lemma build_range_fuel (ls : list hash) n j : forall f f' i, (f <= f')%nat -> (length (build_range f' ls n i j) <= f)%nat ->
  build_range f ls n i j = build_range f' ls n i j.
Proof.
  induction f as [|f IH]; intros f' i Hf Hl; [destruct (build_range f' ls n i j); [reflexivity | cbn in Hl; lia]|].
  destruct f' as [|f']; [lia|]. cbn [Rhp.build_range] in *. destruct ((i <? j) && (i <? n)); [|reflexivity]. cbv zeta in *.
  cbn [length] in Hl. f_equal. apply IH; lia.
Qed.

Lemma subtrees_build (ls : list hash) j : j <= N.of_nat (length ls) -> j < 2 ^ 64 -> forall f i,
  Rhp.range_subtrees H f ls i j = build_range f ls (N.of_nat (length ls)) i j.
Proof.
  intros Hjn Hj. induction f as [|f IH]; intros i; cbn [Rhp.range_subtrees Rhp.build_range]; [reflexivity|].
  destruct (N.ltb_spec i j) as [L|G]; [|reflexivity]. destruct (N.ltb_spec i (N.of_nat (length ls))); [|lia]. cbn [andb]. cbv zeta.
  destruct (nss_spec i j L Hj) as (h & Es & _ & _ & Fit & _). rewrite Es in *.
  destruct (N.ltb_spec (N.of_nat (length ls)) (i + 2 ^ h)); [lia|]. f_equal. apply IH.
Qed.
Lemma gaps_length (ls : list hash) f : forall i j, N.of_nat (length (Rhp.range_subtrees H f ls i j)) = gaps_size f i j.
Proof. induction f as [|f IH]; intros i j; cbn [Rhp.range_subtrees gaps_size]; [reflexivity|]. destruct (i <? j); [|reflexivity]. cbv zeta. cbn [length]. rewrite <- IH. lia. Qed.

Lemma firstn_aligned (ls : list hash) i q h : i <= N.of_nat (length ls) -> i = q * 2 ^ h ->
  (exists k, length (firstn (N.to_nat i) ls) = k * 2 ^ N.to_nat h)%nat.
Proof. intros Hi Dv. exists (N.to_nat q). rewrite firstn_length, Nat.min_l, <- pow_nat by lia. lia. Qed.

Lemma repr_block (ls : list hash) i q h acc : Repr hash node (firstn (N.to_nat i) ls) acc -> i = q * 2 ^ h -> i + 2 ^ h <= N.of_nat (length ls) ->
  Repr hash node (firstn (N.to_nat (i + 2 ^ h)) ls) (insert_node (mroot (slice ls i (2 ^ h))) (N.to_nat h) acc).
Proof.
  intros R Dv Fit. rewrite <- firstn_slice.
  apply (insert_aligned H); [exact R | apply (firstn_aligned ls i q h); [lia | exact Dv] | rewrite slice_length by exact Fit; apply pow_nat].
Qed.

(* builder (fuel fb) and verifier (fuel fv) over [i, start), where no subtree is clipped *)
Lemma left_sync (ls : list hash) start : start <= N.of_nat (length ls) -> N.of_nat (length ls) < 2 ^ 64 ->
  forall k i acc rest fb fv, (N.to_nat (start - i) <= k)%nat -> i <= start ->
    Repr hash node (firstn (N.to_nat i) ls) acc ->
    (N.to_nat (start - i) <= fb)%nat -> (length (build_range fb ls (N.of_nat (length ls)) i start) < fv)%nat ->
    exists acc', insert_range fv acc (build_range fb ls (N.of_nat (length ls)) i start ++ rest) i start = (acc', rest) /\
                 Repr hash node (firstn (N.to_nat start) ls) acc'.
Proof.
  intros Hs Hn. induction k as [|k IH]; intros i acc rest fb fv Hk Hi R Hfb Hfv;
    (destruct (N.eq_dec i start) as [->|Ne]; [exists acc; rewrite build_range_nil, insert_range_done by lia; split; [reflexivity | exact R]|]); [lia|].
  assert (Lt : i < start) by (clear - Hi Ne; lia).
  destruct (nss_spec i start Lt ltac:(clear - Hs Hn; lia)) as (h & Es & _ & (q & Dv) & Fit & Tz & _). pose proof (pow2_pos h) as P.
  destruct fb as [|fb]; [clear - Hfb Lt; lia|]. cbn [Rhp.build_range] in *. rewrite (proj2 (N.ltb_lt i start) Lt), (proj2 (N.ltb_lt i _)), Es in * by (clear - Lt Hs; lia).
  cbn [andb] in *. cbv zeta in *. rewrite (proj2 (N.ltb_ge _ (i + 2 ^ h))) in * by (clear - Fit Hs; lia). cbn [length app] in *.
  destruct fv as [|fv]; [clear - Hfv; lia|]. cbn [Rhp.insert_range]. rewrite (proj2 (N.ltb_lt i start) Lt). cbv zeta. rewrite Es, Tz.
  apply (IH (i + 2 ^ h) _ rest fb fv); [clear - Hk P Lt; lia | exact Fit | | clear - Hfb P Lt; lia | clear - Hfv; lia]. apply (repr_block ls i q h acc R Dv). clear - Fit Hs. lia.
Qed.
End RLoops.
