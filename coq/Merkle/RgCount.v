(* popcount: its bound by the bit length, and its equations (doubling, removing the top bit); rhp/v2 rangeProofSize never
   exceeds 128. *)
From Coq Require Import List NArith Arith Bool Lia.
From Sia Require Import Prim.Tok Merkle.Rhp.
Import ListNotations.
Local Open Scope N_scope.

Lemma popcount_pos_size p : popcount_pos p <= Npos (Pos.size p).
Proof. induction p as [p IH|p IH|]; cbn [popcount_pos Pos.size]; lia. Qed.
Lemma popcount_le x k : x < 2 ^ k -> popcount x <= k.
Proof.
  intros Hx. destruct x as [|p]; [apply N.le_0_l|]. cbn [popcount]. apply N.le_trans with (1 := popcount_pos_size p).
  change (N.size (Npos p) <= k). rewrite N.size_log2 by discriminate. apply N.le_succ_l, N.log2_lt_pow2; [reflexivity | exact Hx].
Qed.
Lemma popcount_le_64 x : x < 2 ^ 64 -> popcount x <= 64.
Proof. apply popcount_le. Qed.
Lemma bits_bound x k : (forall i, k <= i -> N.testbit x i = false) -> x < 2 ^ k.
Proof.
  intros Hb. destruct (N.eq_dec x 0) as [->|NZ]; [apply N.neq_0_lt_0, N.pow_nonzero; discriminate|].
  apply N.log2_lt_pow2; [lia|]. destruct (N.lt_ge_cases (N.log2 x) k) as [|G]; [assumption|].
  specialize (Hb (N.log2 x) G). rewrite (N.bit_log2 x NZ) in Hb. discriminate.
Qed.
Lemma high_bits_zero a k i : a < 2 ^ k -> k <= i -> N.testbit a i = false.
Proof.
  intros Ha Hi. destruct (N.eq_dec a 0) as [->|NZ]; [apply N.bits_0|]. apply N.bits_above_log2.
  apply N.lt_le_trans with (2 := Hi), N.log2_lt_pow2; [lia | exact Ha].
Qed.
Lemma mask_bound e p : N.land (N.ldiff (Rhp.W - 1) e) p < 2 ^ 64.
Proof.
  apply bits_bound. intros i Hi. rewrite N.land_spec, N.ldiff_spec, (high_bits_zero (Rhp.W - 1) 64 i) by (unfold Rhp.W; lia). reflexivity.
Qed.
Lemma range_proof_size_bound n s e : s < 2 ^ 64 -> range_proof_size n s e <= 128.
Proof.
  intros Hs. unfold range_proof_size. pose proof (popcount_le_64 s Hs).
  pose proof (popcount_le_64 _ (mask_bound (e - 1) (2 ^ bitlen (N.lxor (e - 1) (n - 1)) - 1))). lia.
Qed.

Lemma popcount_double y : popcount (2 * y) = popcount y.
Proof. destruct y as [|p]; reflexivity. Qed.
Lemma popcount_succ_double y : popcount (2 * y + 1) = 1 + popcount y.
Proof. destruct y as [|p]; reflexivity. Qed.
Lemma popcount_pow_mul k y : popcount (2 ^ k * y) = popcount y.
Proof.
  induction k as [|k IH] using N.peano_ind; [rewrite N.pow_0_r, N.mul_1_l; reflexivity|].
  rewrite N.pow_succ_r', <- N.mul_assoc, popcount_double. exact IH.
Qed.
Lemma popcount_top x : 0 < x -> popcount x = 1 + popcount (x - 2 ^ N.log2 x).
Proof.
  destruct x as [|p]; [lia|]. intros _. induction p as [p IH|p IH|].
  - replace (N.pos p~1) with (2 * N.pos p + 1) by lia. rewrite N.log2_succ_double by lia. rewrite N.pow_succ_r', popcount_succ_double, IH.
    replace (2 * N.pos p + 1 - 2 * 2 ^ N.log2 (N.pos p)) with (2 * (N.pos p - 2 ^ N.log2 (N.pos p)) + 1).
    + rewrite popcount_succ_double. reflexivity.
    + pose proof (N.log2_spec (N.pos p) ltac:(lia)). lia.
  - replace (N.pos p~0) with (2 * N.pos p) by lia. rewrite N.log2_double by lia. rewrite N.pow_succ_r', popcount_double, IH.
    replace (2 * N.pos p - 2 * 2 ^ N.log2 (N.pos p)) with (2 * (N.pos p - 2 ^ N.log2 (N.pos p))) by lia.
    rewrite popcount_double. reflexivity.
  - reflexivity.
Qed.
